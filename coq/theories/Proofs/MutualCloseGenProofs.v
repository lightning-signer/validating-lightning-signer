(** The validator of the cooperative-close model ([validate_mutual_close] of Model/MutualClose.v,
    with its [validate_fee], [outside_epsilon], [value_checks], [script_check]) is what the
    translated source computes: Gen/MutualCloseGen.v is regenerated on every run from
    SimpleValidator::validate_mutual_close_tx (whole body), ::outside_epsilon_range and
    CommitmentInfo2::htlcs_is_empty; validate_fee is the translation of Gen/CommitmentPolicyGen.v.

    Scripts and paths are opaque identities in the translation and byte / index lists in the
    model: [dec] / [decp] name the list an identity stands for, and any faithful naming will do
    ([enc (dec i) = i]: different identities are different lists).  The wallet's two answers are
    uninterpreted functions of identities on the source side; the model's oracle functions are
    those functions through the naming.  The weight the source obtains from LDK's
    ClosingTransaction and rust-bitcoin ([mutual_close_weight], a parameter of the translation) is
    the model's [close_weight] of the canonical closing transaction for the same arguments.
    [close_fits] is true of every value of the Rust types: the channel value, the two output
    values and the four commitment values fit u64. *)
From Coq Require Import String.
From VLS Require Import Base.Rust Gen.MutualCloseGen Proofs.RustFacts.
From VLS Require Gen.CommitmentPolicyGen Gen.TxUtilGen Proofs.TxUtilGenProofs.
From VLS Require Import Model.MutualClose Proofs.MutualCloseProofs.
Require Import Lia.

Module CP := CommitmentPolicyGen.

Definition abs_policy (p : CP.SimplePolicy) : policy :=
  mkPol (CP.SimplePolicy_min_feerate_per_kw p) (CP.SimplePolicy_max_feerate_per_kw p) (CP.SimplePolicy_epsilon_sat p).

Definition abs_info (i : CP.CommitmentInfo2) : cinfo :=
  mkInfo (CP.CommitmentInfo2_to_broadcaster_value_sat i) (CP.CommitmentInfo2_to_countersigner_value_sat i)
         (len_of (CP.CommitmentInfo2_offered_htlcs i)) (len_of (CP.CommitmentInfo2_received_htlcs i)).

Definition abs_estate (e : EnforcementState) : estate :=
  mkEstate (option_map abs_info (EnforcementState_current_holder_commit_info e))
           (option_map abs_info (EnforcementState_current_counterparty_commit_info e))
           (EnforcementState_channel_closed e).

(** the funding outpoint is an identity on the source side; the validator reads it only to build
    the transaction whose weight it asks for *)
Definition abs_setup (dec : N -> script) (s : CP.ChannelSetup) : setup :=
  mkSetup (CP.ChannelSetup_is_outbound s) (CP.ChannelSetup_channel_value_sat s)
          (option_map dec (CP.ChannelSetup_holder_shutdown_script s))
          (mkOP (CP.ChannelSetup_funding_outpoint s) 0).

Definition abs_args (dec : N -> script) (decp : N -> path) (vh vc : N) (hs cs : option N) (pid : N) : close_args :=
  mkArgs vh vc (option_map dec hs) (option_map dec cs) (decp pid).

Definition tag_filter (swarn : string -> bool) : tag -> bool := fun t => swarn (tag_name t).

Definition of_res (r : res) : trap (result unit) :=
  match r with
  | Ok => Val (OkR tt)
  | Err t => Val (ErrR (tag_name t))
  | Panic => Trap
  end.

Definition info_fits (o : option CP.CommitmentInfo2) : bool :=
  match o with
  | None => true
  | Some i => (CP.CommitmentInfo2_to_broadcaster_value_sat i <=? U64MAX)
              && (CP.CommitmentInfo2_to_countersigner_value_sat i <=? U64MAX)
  end.

Definition close_fits (gs : CP.ChannelSetup) (ge : EnforcementState) (vh vc : N) : bool :=
  (CP.ChannelSetup_channel_value_sat gs <=? U64MAX) && (vh <=? U64MAX) && (vc <=? U64MAX)
  && info_fits (EnforcementState_current_holder_commit_info ge)
  && info_fits (EnforcementState_current_counterparty_commit_info ge).

Lemma of_res_andthen a b : of_res (andthen a b) = bindR (of_res a) (fun _ => of_res b).
Proof. destruct a; reflexivity. Qed.

Lemma check_alone swarn (c : bool) t :
  (if c then policy_err swarn (tag_name t) else Val (OkR tt)) = of_res (check (tag_filter swarn) c t).
Proof.
  unfold check, perr, policy_err, tag_filter.
  destruct c; [destruct (swarn (tag_name t))|]; reflexivity.
Qed.

Lemma step_check swarn (c : bool) t (g : trap (result unit)) (m : res) :
  g = of_res m ->
  bindR (if c then policy_err swarn (tag_name t) else Val (OkR tt)) (fun _ => g) =
  of_res (andthen (check (tag_filter swarn) c t) m).
Proof. intros ->. rewrite check_alone. symmetry. apply of_res_andthen. Qed.

(** validate_fee (the translation of Gen/CommitmentPolicyGen.v) against this model's copy *)
Lemma gen_fee_is_close_model prof swarn gp sum_inputs sum_outputs w :
  sum_inputs <= U64MAX ->
  CP.gen_validate_fee prof swarn gp (tag_name T_fee_range) sum_inputs sum_outputs w =
  of_res (validate_fee (tag_filter swarn) (abs_policy gp) sum_inputs sum_outputs w).
Proof.
  intros Hfit. unfold CP.gen_validate_fee, validate_fee. cbv beta zeta.
  cbn [abs_policy min_feerate max_feerate].
  unfold sub_checked. destruct (N.leb_spec sum_outputs sum_inputs); cbn [ok_or bindR of_res]; [|reflexivity].
  rewrite TxUtilGenProofs.gen_estimate_spec by lia. destruct (w =? 0); [reflexivity|].
  change CommitmentPolicy.estimate_feerate_per_kw with estimate_feerate_per_kw.
  norm.
  apply (step_check swarn _ T_fee_range).
  apply (check_alone swarn _ T_fee_range).
Qed.

Lemma gen_epsilon_is_model prof swarn gp a b :
  a <= U64MAX -> b <= U64MAX ->
  gen_outside_epsilon_range prof swarn gp a b =
  Val (outside_epsilon (abs_policy gp) a b, if b <? a then "larger"%string else "smaller"%string).
Proof.
  intros Ha Hb. unfold gen_outside_epsilon_range, outside_epsilon. cbn [abs_policy epsilon].
  destruct (b <? a) eqn:E.
  - rewrite (sub_p_ok prof a b) by lia. reflexivity.
  - rewrite (sub_p_ok prof b a) by lia. reflexivity.
Qed.

(** one epsilon comparison of the source followed by the rest of its block *)
Lemma step_epsilon prof swarn gp a b (g : trap (result unit)) (m : res) :
  a <= U64MAX -> b <= U64MAX ->
  g = of_res m ->
  (t <- gen_outside_epsilon_range prof swarn gp a b ;;
   let '(c, descr) := t in
   u <-? (if c then policy_err swarn (tag_name T_value_matches) else Val (OkR tt)) ;; g) =
  of_res (andthen (check (tag_filter swarn) (outside_epsilon (abs_policy gp) a b) T_value_matches) m).
Proof.
  intros Ha Hb Hg. rewrite gen_epsilon_is_model by assumption. cbn [bindT].
  apply step_check. exact Hg.
Qed.

Lemma opt_script_eqb_dec (enc : script -> N) (dec : N -> script) a b :
  (forall i, enc (dec i) = i) ->
  opt_script_eqb (option_map dec a) (option_map dec b) = opt_id_eqb a b.
Proof.
  intros H. destruct a as [x|], b as [y|]; cbn [option_map opt_script_eqb opt_id_eqb]; try reflexivity.
  destruct (x =? y) eqn:E.
  - apply N.eqb_eq in E. subst. apply bytes_eqb_eq. reflexivity.
  - destruct (bytes_eqb (dec x) (dec y)) eqn:B; [|reflexivity].
    apply bytes_eqb_eq in B. apply N.eqb_neq in E. exfalso. apply E.
    rewrite <- (H x), <- (H y), B. reflexivity.
Qed.

Lemma is_none_map {A B} (f : A -> B) o : is_none (option_map f o) = is_none_of o.
Proof. destruct o; reflexivity. Qed.

Lemma if_nest {A} (a b : bool) (x y : A) :
  (if a then (if b then x else y) else y) = (if a && b then x else y).
Proof. destruct a, b; reflexivity. Qed.

Lemma andthen_ok_r a : andthen a Ok = a.
Proof. destruct a; reflexivity. Qed.

Theorem gen_mutual_close_is_model prof swarn gp (wcs : N -> N -> N -> option bool) (wal : N -> N -> N -> bool)
    wid gs ge vh vc hs cs pid (enc : script -> N) (dec : N -> script) (encp : path -> N) (decp : N -> path) :
  (forall i, enc (dec i) = i) -> (forall i, encp (decp i) = i) ->
  close_fits gs ge vh vc = true ->
  gen_validate_mutual_close_tx prof swarn gp
    (close_weight (tx_outs (close_of (abs_setup dec gs) (abs_args dec decp vh vc hs cs pid))))
    wcs wal wid gs ge vh vc hs cs pid =
  of_res (validate_mutual_close (tag_filter swarn)
            (fun p s => wcs wid (encp p) (enc s)) (fun s p => wal wid (enc s) (encp p))
            (abs_policy gp) (abs_setup dec gs) (abs_estate ge) (abs_args dec decp vh vc hs cs pid)).
Proof.
  intros Henc Hencp Hfit. unfold close_fits in Hfit.
  apply andb_prop in Hfit as [Hfit Hci]. apply andb_prop in Hfit as [Hfit Hhi].
  apply andb_prop in Hfit as [Hfit Hvc]. apply andb_prop in Hfit as [Hcv Hvh].
  apply N.leb_le in Hcv, Hvh, Hvc.
  unfold gen_validate_mutual_close_tx, validate_mutual_close. cbv beta zeta.
  name_string n_value (tag_name T_value_matches). name_string n_dest (tag_name T_destination).
  name_string n_htlcs (tag_name T_no_htlcs). name_string n_fee (tag_name T_fee_range).
  name_string n_scripts (tag_name T_scripts).
  cbn [abs_estate holder_info cp_info abs_args a_vh a_vc a_sh a_sc a_path].
  destruct (EnforcementState_current_holder_commit_info ge) as [hi|]; cbn [option_map ok_or bindR of_res];
    [|reflexivity].
  destruct (EnforcementState_current_counterparty_commit_info ge) as [ci|]; cbn [option_map ok_or bindR of_res];
    [|reflexivity].
  cbn [info_fits] in Hhi, Hci. apply andb_prop in Hhi as [Hhb Hhc]. apply andb_prop in Hci as [Hcb Hcc].
  apply N.leb_le in Hhb, Hhc, Hcb, Hcc.
  rewrite !bindR_unit.
  rewrite !is_none_map.
  (* a positive value needs a script, on either side *)
  apply (step_check swarn _ T_destination).
  apply (step_check swarn _ T_destination).
  (* the upfront shutdown script *)
  rewrite if_nest.
  cbn [abs_setup upfront channel_value is_outbound].
  rewrite is_none_map, not_none_some, (opt_script_eqb_dec enc dec hs _ Henc).
  rewrite <- andb_assoc.
  apply (step_check swarn _ T_destination).
  (* no pending HTLCs *)
  unfold gen_CommitmentInfo2_htlcs_is_empty. cbn [bindT]. rewrite if_val. cbn [bindT].
  unfold htlcs_empty. cbn [abs_info n_offered n_received]. rewrite !is_empty_len.
  apply (step_check swarn _ T_no_htlcs).
  (* the sum of the outputs, the fee *)
  destruct (add_checked vh vc) as [sum_outputs|]; cbn [ok_or bindR of_res]; [|reflexivity].
  rewrite (gen_fee_is_close_model prof swarn gp) by exact Hcv.
  rewrite of_res_andthen. apply bindR_cong. intros _.
  (* the side that does not pay the fee, against both commitments *)
  rewrite of_res_andthen.
  apply bindR_both; [|intros _].
  { unfold value_checks. cbn [abs_setup is_outbound abs_info to_broadcaster to_countersigner].
    destruct (CP.ChannelSetup_is_outbound gs);
      (apply step_epsilon; [assumption | assumption |];
       rewrite <- (andthen_ok_r (check _ _ T_value_matches));
       apply step_epsilon; [assumption | assumption | reflexivity]). }
  (* the holder's script: the wallet or the allowlist *)
  unfold script_check.
  destruct hs as [scr|]; cbn [option_map]; [|reflexivity].
  rewrite Hencp, Henc.
  destruct (wcs wid pid scr) as [[|]|]; cbn [ok_or bindR negb andb of_res]; [reflexivity | | reflexivity].
  rewrite bindR_unit. apply (check_alone swarn _ T_destination).
Qed.
