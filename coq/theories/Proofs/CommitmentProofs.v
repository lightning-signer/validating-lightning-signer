(** C04: the decoder inverts the builder on every canonical commitment, and what the two
    signing entry points of Model/Commitment.v return.  The external primitives (hashes,
    public-key parsing, the signer, the validation verdict) are section variables, and what is
    assumed of them section hypotheses. *)
From Coq Require Import List NArith ZArith Bool Lia Permutation.
From VLS Require Import Base.Codec Model.Commitment Proofs.CommitmentScript Proofs.CommitmentSort.
From VLS Require Base.Eqb.
Import ListNotations.
Open Scope N_scope.

Lemma txout_eqb_iff a b : txout_eqb a b = true <-> a = b.
Proof.
  destruct a as [a1 a2], b as [b1 b2]. unfold txout_eqb. cbn [o_value o_spk].
  rewrite andb_true_iff, N.eqb_eq, bytes_eqb_eq.
  split; [intros [-> ->]; reflexivity|intros [= -> ->]; auto].
Qed.
Lemma txin_eqb_iff a b : txin_eqb a b = true <-> a = b.
Proof.
  destruct a as [a1 a2 a3 a4 a5], b as [b1 b2 b3 b4 b5]. unfold txin_eqb.
  cbn [i_txid i_vout i_script i_seq i_wit].
  rewrite !andb_true_iff, !N.eqb_eq, !bytes_eqb_eq, (Eqb.list_eqb_ok bytes_eqb bytes_eqb_eq).
  split; [intros [[[[-> ->] ->] ->] ->]; reflexivity|intros [= -> -> -> -> ->]; auto 6].
Qed.
Lemma tx_eqb_iff a b : tx_eqb a b = true <-> a = b.
Proof.
  destruct a as [a1 a2 a3 a4], b as [b1 b2 b3 b4]. unfold tx_eqb. cbn [t_version t_ins t_outs t_lock].
  rewrite !andb_true_iff, !N.eqb_eq.
  rewrite (Eqb.list_eqb_ok txin_eqb txin_eqb_iff), (Eqb.list_eqb_ok txout_eqb txout_eqb_iff).
  split; [intros [[[-> ->] ->] ->]; reflexivity|intros [= -> -> -> ->]; auto].
Qed.

Definition count {A} (p : A -> bool) (l : list A) : nat := length (filter p l).

Lemma count_cons {A} (p : A -> bool) x l : count p (x :: l) = ((if p x then 1 else 0) + count p l)%nat.
Proof. unfold count. cbn [filter]. destruct (p x); reflexivity. Qed.
Lemma count_app {A} (p : A -> bool) l1 l2 : count p (l1 ++ l2) = (count p l1 + count p l2)%nat.
Proof. unfold count. rewrite filter_app. apply app_length. Qed.
Lemma count_perm {A} (p : A -> bool) l l' : Permutation l l' -> count p l = count p l'.
Proof.
  unfold count. induction 1 as [|x l l' _ IH|x y l|]; cbn [filter]; [reflexivity| | |congruence].
  - destruct (p x); cbn [length]; congruence.
  - destruct (p x), (p y); reflexivity.
Qed.
Lemma count_map {A B} (p : B -> bool) (g : A -> B) l : count p (map g l) = count (fun x => p (g x)) l.
Proof.
  unfold count. induction l as [|x l IH]; cbn [map filter]; [reflexivity|].
  destruct (p (g x)); cbn [length]; congruence.
Qed.
Lemma count_if {A} (p : A -> bool) (b : bool) x : p x = false -> count p (if b then [x] else []) = 0%nat.
Proof. intros H. destruct b; [|reflexivity]. rewrite count_cons, H. reflexivity. Qed.
Lemma count_const {A} (b : bool) (l : list A) : count (fun _ => b) l = if b then length l else 0%nat.
Proof. unfold count. destruct b; induction l as [|x l IH]; cbn [filter length]; congruence. Qed.

(** the LDK builders are instances of the templates vls-core parses *)
Lemma revokeable_as_tmpl r d k :
  revokeable_script r d k = build_tmpl t_to_broadcaster [VData r; VNum (Z.of_N d); VData k].
Proof.
  unfold revokeable_script, t_to_broadcaster. cbn [build_tmpl app]. rewrite N2Z.id. reflexivity.
Qed.

Lemma to_cs_as_tmpl p :
  to_countersigner_anchors_script p = build_tmpl t_to_countersigner_delayed [VData p].
Proof. reflexivity. Qed.

Lemma anchor_as_tmpl f : anchor_script f = build_tmpl t_anchor [VData f].
Proof. reflexivity. Qed.

Lemma csv1_as_tmpl zf rest :
  csv1_suffix zf ++ rest = build_tmpl (t_anchor_suffix zf) [] ++ rest.
Proof. destruct zf; reflexivity. Qed.

Lemma offered_as_tmpl zf r160 ck bk p160 :
  offered_htlc_script zf r160 ck bk p160
  = build_tmpl (t_offered_htlc zf) [VData r160; VData ck; VData bk; VData p160].
Proof.
  destruct zf; unfold offered_htlc_script; cbn [build_tmpl app t_offered_htlc t_anchor_suffix csv1_suffix];
    rewrite <- ?app_assoc; reflexivity.
Qed.

Lemma received_as_tmpl zf r160 ck bk p160 cltv :
  received_htlc_script zf r160 ck bk p160 cltv
  = build_tmpl (t_received_htlc zf) [VData r160; VData ck; VData p160; VData bk; VNum (Z.of_N cltv)].
Proof.
  destruct zf; unfold received_htlc_script; cbn [build_tmpl app t_received_htlc t_anchor_suffix csv1_suffix];
    rewrite N2Z.id, <- ?app_assoc; reflexivity.
Qed.

Section Decode.
  Variable sha rip : bytes -> bytes.
  Variable pk_parse : bytes -> option bytes.
  Hypothesis sha_len : forall x, length (sha x) = 32%nat.
  Hypothesis rip_len : forall x, length (rip x) = 20%nat.
  Variable s : setup.
  Variable k : ckeys.

  (** what the round trip needs of the channel: the commitment type is one LDK builds as
      negotiated, the delay is one the decoder admits, the keys are serialised points *)
  Record wf : Prop := mkWf {
    wf_ctype : s_ctype s <> Anchors;
    wf_delay : s_delay s <= 2016;
    wf_l_rev : length (k_revocation k) = 33%nat;
    wf_l_delayed : length (k_delayed k) = 33%nat;
    wf_l_bh : length (k_b_htlc k) = 33%nat;
    wf_l_ch : length (k_c_htlc k) = 33%nat;
    wf_l_pay : length (s_holder_payment s) = 33%nat;
    wf_l_cpf : length (s_cp_funding s) = 33%nat;
    wf_l_hf : length (s_holder_funding s) = 33%nat;
    wf_pk_rev : pk_parse (k_revocation k) <> None;
    wf_pk_delayed : pk_parse (k_delayed k) <> None;
    wf_pk_pay : pk_parse (s_holder_payment s) <> None;
    wf_pk_cpf : pk_parse (s_cp_funding s) = Some (s_cp_funding s);
    wf_pk_hf : pk_parse (s_holder_funding s) = Some (s_holder_funding s);
  }.
  Hypothesis W : wf.

  Local Notation handle := (handle_output sha pk_parse s).
  Local Notation ZF := (zf s).

  Lemma anchors_zf : anchors s = ZF.
  Proof. pose proof (wf_ctype W) as H. unfold anchors, zf. destruct (s_ctype s); try reflexivity. contradiction. Qed.

  Definition handlers (i : info) (v : N) : list (list titem * (list tval -> option info)) :=
    [(t_to_broadcaster, handle_to_broadcaster pk_parse i v);
     (t_received_htlc ZF, handle_received_htlc i v);
     (t_offered_htlc ZF, handle_offered_htlc i v);
     (t_anchor, handle_anchor pk_parse s i v)]
    ++ (if ZF then [(t_to_countersigner_delayed, handle_to_countersigner_delayed pk_parse i v)] else []).

  Lemma handle_p2wsh i v ws : handle i (mkOut v (p2wsh sha ws)) ws = first_parse (handlers i v) ws.
  Proof.
    unfold handle_output, handlers, is_p2wsh. cbn [o_spk o_value p2wsh is_p2wpkh length app Nat.eqb].
    rewrite sha_len, anchors_zf, (proj2 (bytes_eqb_eq _ _) eq_refl).
    destruct ZF, ws; reflexivity.
  Qed.

  Lemma rev160_len : length (rev160 sha rip k) = 20%nat.
  Proof. apply rip_len. Qed.

  (** [wf_tv] of a template on concrete values: opcode and constant conditions compute, lengths
      and number ranges are linear facts about what is in the context *)
  Ltac wf_tmpl :=
    cbn [wf_tv app t_to_broadcaster t_received_htlc t_offered_htlc t_anchor_suffix t_anchor
         t_to_countersigner_delayed];
    repeat split; lia.

  (** each canonical output is the to_remote, the to_local, or leaves both balances alone; of
      the decoder's state only the two balances and whether each was seen matter *)
  Inductive eclass := KRemote | KLocal | KOther.
  Definition core (i : info) : bool * N * bool * N := (has_cs i, cs_value i, has_b i, b_value i).
  Definition cstep (vr vl : N) (q : bool * N * bool * N) (c : eclass) : bool * N * bool * N :=
    let '(hc, cv, hb, bv) := q in
    match c with KRemote => (true, vr, hb, bv) | KLocal => (hc, cv, true, vl) | KOther => q end.
  Definition cfree (q : bool * N * bool * N) (c : eclass) : bool :=
    let '(hc, _, hb, _) := q in
    match c with KRemote => negb hc | KLocal => negb hb | KOther => true end.

  Definition handle_ok (vr vl : N) (p : oentry * eclass) : Prop :=
    forall i, cfree (core i) (snd p) = true ->
      exists i', handle i (e_out (fst p)) (e_ws (fst p)) = Some i'
                 /\ core i' = cstep vr vl (core i) (snd p).

  Lemma to_local_ok vr vl : handle_ok vr vl (p2wsh_entry sha vl (to_local_script s k), KLocal).
  Proof.
    intros i Hb. apply negb_true_iff in Hb. cbn [fst snd p2wsh_entry e_out e_ws core] in *.
    pose proof (wf_delay W). pose proof (wf_l_rev W). pose proof (wf_l_delayed W).
    pose proof (wf_pk_rev W). pose proof (wf_pk_delayed W). unfold to_local_script.
    rewrite handle_p2wsh, revokeable_as_tmpl. erewrite (first_parse_build _ 0) by (reflexivity || wf_tmpl).
    unfold handle_to_broadcaster, MAX_DELAY. rewrite Hb.
    destruct (Z.ltb_spec (Z.of_N (s_delay s)) 0); [lia|].
    destruct (Z.ltb_spec 2016 (Z.of_N (s_delay s))); [lia|].
    destruct (pk_parse (k_delayed k)); [|contradiction].
    destruct (pk_parse (k_revocation k)); [|contradiction].
    eexists. split; reflexivity.
  Qed.

  Lemma to_remote_ok vr vl : handle_ok vr vl (to_remote_entry sha rip s vr, KRemote).
  Proof.
    intros i Hc. apply negb_true_iff in Hc. cbn [fst snd core] in *.
    unfold to_remote_entry. destruct ZF eqn:Hz.
    - pose proof (wf_l_pay W). pose proof (wf_pk_pay W). cbn [p2wsh_entry e_out e_ws].
      rewrite handle_p2wsh, to_cs_as_tmpl.
      erewrite (first_parse_build _ 4) by ((unfold handlers; rewrite Hz; reflexivity) || wf_tmpl).
      unfold handle_to_countersigner_delayed. rewrite Hc.
      destruct (pk_parse (s_holder_payment s)); [|contradiction]. eexists. split; reflexivity.
    - cbn [e_out e_ws]. unfold handle_output, is_p2wpkh, hash160. cbn [o_spk o_value p2wpkh length app].
      rewrite rip_len, anchors_zf, Hz, Hc. eexists. split; reflexivity.
  Qed.

  Lemma htlc_ok vr vl (offered : bool) (h : htlc) :
    (offered = false -> h_cltv h < 2 ^ 31) -> handle_ok vr vl (htlc_entry sha rip s k offered h, KOther).
  Proof.
    intros Hc i _. cbn [fst snd htlc_entry e_out e_ws cstep]. unfold htlc_script.
    pose proof rev160_len. pose proof (rip_len (h_hash h)). pose proof (wf_l_bh W). pose proof (wf_l_ch W).
    rewrite handle_p2wsh.
    destruct offered.
    - rewrite offered_as_tmpl. erewrite (first_parse_build _ 2) by (reflexivity || (destruct ZF; wf_tmpl)).
      unfold handle_offered_htlc. rewrite rip_len. eexists. split; reflexivity.
    - specialize (Hc eq_refl).
      rewrite received_as_tmpl. erewrite (first_parse_build _ 1) by (reflexivity || (destruct ZF; wf_tmpl)).
      unfold handle_received_htlc. rewrite rip_len. cbn [Nat.eqb negb].
      destruct (Z.ltb_spec (Z.of_N (h_cltv h)) 0); [lia|]. eexists. split; reflexivity.
  Qed.

  Lemma anchor_ok vr vl f :
    f = s_cp_funding s \/ f = s_holder_funding s ->
    handle_ok vr vl (p2wsh_entry sha ANCHOR_SAT (anchor_script f), KOther).
  Proof.
    intros Hf i _. cbn [fst snd p2wsh_entry e_out e_ws cstep].
    assert (Hl : length f = 33%nat) by (destruct Hf; subst f; apply W).
    assert (Hp : pk_parse f = Some f) by (destruct Hf; subst f; apply W).
    rewrite handle_p2wsh, anchor_as_tmpl. erewrite (first_parse_build _ 3) by (reflexivity || wf_tmpl).
    unfold handle_anchor. rewrite Hp, N.eqb_refl. cbn [negb].
    destruct (bytes_eqb f (s_cp_funding s)) eqn:E1; [eexists; split; reflexivity|].
    destruct Hf as [->| ->]; rewrite (proj2 (bytes_eqb_eq _ _) eq_refl) in *; [discriminate|].
    eexists. split; reflexivity.
  Qed.

  Definition same_class (c d : eclass) : bool :=
    match c, d with KRemote, KRemote | KLocal, KLocal | KOther, KOther => true | _, _ => false end.
  Local Notation cnt c := (count (fun p : oentry * eclass => same_class (snd p) c)).

  Definition pairs (l : list (oentry * eclass)) : list (txout * bytes) :=
    map (fun p => (e_out (fst p), e_ws (fst p))) l.

  Lemma decode_tagged vr vl : forall l i,
    Forall (handle_ok vr vl) l ->
    (cnt KRemote l + (if has_cs i then 1 else 0) <= 1)%nat ->
    (cnt KLocal l + (if has_b i then 1 else 0) <= 1)%nat ->
    exists i', decode_outputs sha pk_parse s i (pairs l) = Some i'
      /\ cs_value i' = match cnt KRemote l with O => cs_value i | S _ => vr end
      /\ b_value i' = match cnt KLocal l with O => b_value i | S _ => vl end.
  Proof.
    induction l as [|[e c] l IH]; intros i HF Hr Hl; [exists i; repeat split|].
    inversion HF as [|? ? Hok HF']; subst.
    rewrite !count_cons in *. cbn [pairs map decode_outputs fst snd] in *.
    destruct (Hok i) as (i1 & E1 & C1).
    { clear - Hr Hl. unfold core, cfree.
      destruct c, (has_cs i), (has_b i); cbn [same_class] in *; reflexivity || lia. }
    cbn [fst snd] in E1, C1. rewrite E1. unfold core, cstep in C1.
    destruct c; cbn [same_class] in *; injection C1 as A1 A2 A3 A4.
    (* from [i1] the rest of the list meets the two hypotheses again *)
    all: destruct (IH i1 HF') as (i2 & E2 & V1 & V2);
      [rewrite A1; clear - Hr; destruct (has_cs i); lia|rewrite A3; clear - Hl; destruct (has_b i); lia|].
    all: exists i2; split; [exact E2|]; rewrite V1, V2, A2, A4.
    - replace (cnt KRemote l) with 0%nat by (clear - Hr; lia). split; reflexivity.
    - replace (cnt KLocal l) with 0%nat by (clear - Hl; lia). split; reflexivity.
    - split; reflexivity.
  Qed.

  Definition tag (c : eclass) (e : oentry) : oentry * eclass := (e, c).
  Definition tentries (c : content) : list (oentry * eclass) :=
    let has_htlcs := negb (match c_offered c, c_received c with [], [] => true | _, _ => false end) in
    map (tag KRemote) (if 0 <? c_to_holder c then [to_remote_entry sha rip s (c_to_holder c)] else [])
    ++ map (tag KLocal) (if 0 <? c_to_cp c then [p2wsh_entry sha (c_to_cp c) (to_local_script s k)] else [])
    ++ map (tag KOther)
         (if ZF then
            (if (0 <? c_to_cp c) || has_htlcs
             then [p2wsh_entry sha ANCHOR_SAT (anchor_script (s_cp_funding s))] else [])
            ++ (if (0 <? c_to_holder c) || has_htlcs
                then [p2wsh_entry sha ANCHOR_SAT (anchor_script (s_holder_funding s))] else [])
          else [])
    ++ map (tag KOther) (map (htlc_entry sha rip s k true) (c_offered c))
    ++ map (tag KOther) (map (htlc_entry sha rip s k false) (c_received c)).

  Lemma map_fst_tag c l : map fst (map (tag c) l) = l.
  Proof. rewrite map_map. apply map_id. Qed.

  Lemma tentries_fst c : map fst (tentries c) = entries sha rip s k c.
  Proof. unfold tentries. rewrite !map_app, !map_fst_tag. reflexivity. Qed.

  Lemma cnt_tag d c l : cnt d (map (tag c) l) = if same_class c d then length l else 0%nat.
  Proof. rewrite count_map. cbn [tag snd]. apply count_const. Qed.

  Lemma tentries_counts c :
    cnt KRemote (tentries c) = (if 0 <? c_to_holder c then 1%nat else 0%nat)
    /\ cnt KLocal (tentries c) = (if 0 <? c_to_cp c then 1%nat else 0%nat).
  Proof.
    unfold tentries. rewrite !count_app, !cnt_tag. cbn [same_class]. rewrite !Nat.add_0_r.
    destruct (0 <? c_to_holder c), (0 <? c_to_cp c); split; reflexivity.
  Qed.

  (** received HTLC expiries must be script numbers the decoder can read back *)
  Definition bounded (c : content) : Prop := Forall (fun h => h_cltv h < 2 ^ 31) (c_received c).

  Lemma tentries_ok c : bounded c -> Forall (handle_ok (c_to_holder c) (c_to_cp c)) (tentries c).
  Proof.
    intros Hb. unfold tentries. rewrite !Forall_app, !Forall_map. repeat split.
    - destruct (0 <? c_to_holder c); repeat constructor. apply to_remote_ok.
    - destruct (0 <? c_to_cp c); repeat constructor. apply to_local_ok.
    - destruct ZF; [|constructor]. rewrite Forall_app. split;
        match goal with |- Forall _ (if ?b then _ else _) => destruct b end; repeat constructor;
        apply anchor_ok; auto.
    - apply Forall_forall. intros h _. apply htlc_ok. discriminate.
    - eapply Forall_impl; [|exact Hb]. intros h Hh. apply htlc_ok. intros _. exact Hh.
  Qed.

  Lemma combine_pairs (l : list (oentry * eclass)) :
    combine (map e_out (map fst l)) (map e_ws (map fst l)) = pairs l.
  Proof. induction l as [|p l IH]; cbn [map combine pairs]; [reflexivity|]. fold (pairs l). rewrite IH. reflexivity. Qed.

  Theorem decode_canon (c : content) :
    bounded c ->
    exists i, decode sha pk_parse s (canon_tx sha rip s k c) (canon_ws sha rip s k c) = Some i
              /\ cs_value i = c_to_holder c /\ b_value i = c_to_cp c.
  Proof.
    intros Hb. unfold decode, canon_tx, canon_ws, sorted_entries. cbn [t_version t_outs N.eqb Pos.eqb negb].
    (* the sort permutes the tagged entries *)
    destruct (Permutation_map_inv fst (tentries c) (sort_entries_perm _)) as (T & ET & PT).
    rewrite <- tentries_fst, ET, combine_pairs.
    destruct (tentries_counts c) as [C1 C2].
    rewrite (count_perm _ _ _ PT) in C1. rewrite (count_perm _ _ _ PT) in C2.
    destruct (decode_tagged (c_to_holder c) (c_to_cp c) T info0) as (i & E & V1 & V2).
    - eapply Permutation_Forall; [exact PT|]. apply tentries_ok. exact Hb.
    - rewrite C1. destruct (0 <? c_to_holder c); cbn; lia.
    - rewrite C2. destruct (0 <? c_to_cp c); cbn; lia.
    - exists i. split; [exact E|]. rewrite V1, V2, C1, C2. cbn [info0 cs_value b_value].
      destruct (N.ltb_spec 0 (c_to_holder c)), (N.ltb_spec 0 (c_to_cp c)); split; lia.
  Qed.
End Decode.

Section Normalize.
  Variable sha rip : bytes -> bytes.
  Variable s : setup.
  Variable k : ckeys.

  Theorem canon_tx_perm c c' :
    c_num c = c_num c' -> c_to_holder c = c_to_holder c' -> c_to_cp c = c_to_cp c' ->
    Permutation (c_offered c) (c_offered c') -> Permutation (c_received c) (c_received c') ->
    canon_tx sha rip s k c = canon_tx sha rip s k c'.
  Proof.
    intros En Eh Ec Po Pr.
    unfold canon_tx, sorted_entries, canon_sequence, canon_locktime, obscured. rewrite En. f_equal.
    apply sorted_outs_perm. unfold entries.
    rewrite Eh, Ec, (perm_case_nil _ _ _ _ Po), (perm_case_nil _ _ _ _ Pr).
    repeat apply Permutation_app; try reflexivity; apply Permutation_map; assumption.
  Qed.

  Theorem canon_tx_normalize c : canon_tx sha rip s k (normalize c) = canon_tx sha rip s k c.
  Proof. apply canon_tx_perm; try reflexivity; apply sort_htlcs_perm. Qed.
End Normalize.

Lemma htlc_amount_exact v : v * 1000 < 2 ^ 64 -> htlc_amount v = v.
Proof.
  intros H. unfold htlc_amount. rewrite N.mod_small by exact H. apply N.div_mul. discriminate.
Qed.

Lemma filter_negb_all {A} (f : A -> bool) (l : list A) :
  Forall (fun x => f x = false) l -> filter (fun x => negb (f x)) l = l.
Proof. induction 1 as [|x l Hx _ IH]; cbn [filter]; [reflexivity|]. rewrite Hx, IH. reflexivity. Qed.

Section Trim.
  Variable sha rip : bytes -> bytes.
  Variable s : setup.
  Variable k : ckeys.

  Definition no_trimmed (c : content) : Prop :=
    Forall (fun h => trimmed s (c_feerate c) true h = false) (c_offered c)
    /\ Forall (fun h => trimmed s (c_feerate c) false h = false) (c_received c).

  Lemma untrim_id c : no_trimmed c -> untrim s c = c.
  Proof.
    intros [Ho Hr]. unfold untrim. rewrite (filter_negb_all _ _ Ho), (filter_negb_all _ _ Hr).
    destruct c; reflexivity.
  Qed.

  Theorem bolt3_untrimmed c :
    no_trimmed c ->
    bolt3_tx sha rip s k c = canon_tx sha rip s k c
    /\ bolt3_ws sha rip s k c = canon_ws sha rip s k c
    /\ bolt3_htlc_txs sha rip s k c = htlc_txs sha rip s k c.
  Proof. intros H. unfold bolt3_tx, bolt3_ws, bolt3_htlc_txs. rewrite (untrim_id c H). repeat split. Qed.

  Lemma no_trimmed_normalize c : no_trimmed (normalize c) -> no_trimmed c.
  Proof.
    unfold no_trimmed, normalize. cbn [c_feerate c_offered c_received].
    intros [Ho Hr]. split; apply Forall_sort_htlcs; assumption.
  Qed.
End Trim.

Lemma content_eta c :
  mkContent (c_num c) (c_feerate c) (c_to_holder c) (c_to_cp c) (c_offered c) (c_received c) = c.
Proof. destruct c; reflexivity. Qed.

(** the BIP143 digest for SIGHASH_ALL with its three inner hashes in sight: two transactions with
    the same outputs share the third *)
Lemma sighash_all (sha : bytes -> bytes) (t : tx) (script : bytes) (v : N) :
  sighash sha t 0 script v SIGHASH_ALL =
  dsha sha (le_enc 4 (t_version t) ++ dsha sha (concat (map ser_outpoint (t_ins t)))
            ++ dsha sha (concat (map (fun i => le_enc 4 (i_seq i)) (t_ins t)))
            ++ ser_outpoint (nth 0 (t_ins t) (mkIn [] 0 [] 0 []))
            ++ varint (lenN script) ++ script ++ le_enc 8 v
            ++ le_enc 4 (i_seq (nth 0 (t_ins t) (mkIn [] 0 [] 0 [])))
            ++ dsha sha (concat (map ser_out (t_outs t))) ++ le_enc 4 (t_lock t) ++ le_enc 4 SIGHASH_ALL).
Proof. reflexivity. Qed.

Section Signing.
  Variable sha rip : bytes -> bytes.
  Variable pk_parse : bytes -> option bytes.
  Variable s : setup.
  Variable k : ckeys.
  Variables SK SIG : Type.
  Variable sign : SK -> bytes -> SIG.
  Variable funding_key htlc_key : SK.
  Variable value_ok : bool.
  Variable accept : content -> bool.

  Local Notation phase1 := (sign_phase1 sha rip pk_parse s k SK SIG sign funding_key value_ok accept).
  Local Notation phase2 := (sign_phase2 sha rip s k SK SIG sign funding_key htlc_key value_ok accept).
  Local Notation canon := (canon_tx sha rip s k).
  Local Notation digest := (commit_sighash sha s).

  Theorem phase1_canonical t ws num feerate offered received sig :
    phase1 t ws num feerate offered received = Ok sig ->
    exists i c,
      decode sha pk_parse s t ws = Some i
      /\ c = normalize (mkContent num feerate (cs_value i) (b_value i) offered received)
      /\ value_ok = true /\ accept c = true
      /\ t = canon c
      /\ ser_tx t = ser_tx (canon c)
      /\ sig = sign funding_key (digest (canon c)).
  Proof.
    unfold sign_phase1. intros H.
    destruct (Nat.eqb (length (t_outs t)) (length ws)); cbn [negb] in H; [|discriminate].
    destruct value_ok; cbn [negb] in H; [|discriminate].
    destruct (decode sha pk_parse s t ws) as [i|]; [|discriminate].
    set (c := normalize (mkContent num feerate (cs_value i) (b_value i) offered received)) in *.
    destruct (accept c) eqn:Ha; cbn [negb] in H; [|discriminate].
    destruct (tx_eqb (canon c) t) eqn:Et; [|discriminate].
    apply tx_eqb_iff in Et. inversion H; subst sig.
    exists i, c. repeat split; try reflexivity; try assumption; rewrite Et; reflexivity.
  Qed.

  Theorem phase2_sig c sig hs :
    phase2 c = Ok (sig, hs) ->
    value_ok = true /\ accept (normalize c) = true
    /\ sig = sign funding_key (digest (canon c))
    /\ exists hts, htlc_txs sha rip s k c = Some hts
                   /\ hs = map (fun x => sign htlc_key (htlc_sighash sha s x)) hts.
  Proof.
    unfold sign_phase2. intros H.
    destruct value_ok; cbn [negb] in H; [|discriminate].
    destruct (accept (normalize c)); cbn [negb] in H; [|discriminate].
    destruct (htlc_txs sha rip s k c) as [hts|]; [|discriminate].
    inversion H; subst. repeat split; try reflexivity. exists hts. split; reflexivity.
  Qed.

  Definition is_htlc (e : oentry) : bool := match e_kind e with KHtlc _ _ => true | KPlain => false end.

  Lemma htlc_txs_from_length txid feerate : forall l idx hts,
    htlc_txs_from sha s k txid feerate idx l = Some hts -> length hts = count is_htlc l.
  Proof.
    induction l as [|e l IH]; intros idx hts H; cbn [htlc_txs_from] in H.
    - inversion H; subst. reflexivity.
    - rewrite count_cons. unfold is_htlc at 1. destruct (e_kind e) as [|offered h].
      + apply IH in H. exact H.
      + destruct (htlc_tx sha s k txid feerate idx offered h) as [t|]; [|discriminate].
        destruct (htlc_txs_from sha s k txid feerate (idx + 1) l) as [ts|] eqn:El; [|discriminate].
        inversion H; subst. cbn [length]. rewrite (IH _ _ El). reflexivity.
  Qed.

  Lemma count_htlc_entries c :
    count is_htlc (sorted_entries sha rip s k c) = (length (c_offered c) + length (c_received c))%nat.
  Proof.
    unfold sorted_entries. rewrite (count_perm _ _ _ (sort_entries_perm _)). unfold entries.
    rewrite !count_app, !count_map. cbn [is_htlc htlc_entry e_kind]. rewrite !count_const.
    assert (R : is_htlc (to_remote_entry sha rip s (c_to_holder c)) = false)
      by (unfold to_remote_entry; destruct (zf s); reflexivity).
    destruct (zf s); rewrite ?count_app, !count_if by (exact R || reflexivity); reflexivity.
  Qed.

  Theorem phase2_htlc_count c sig hs :
    phase2 c = Ok (sig, hs) -> length hs = (length (c_offered c) + length (c_received c))%nat.
  Proof.
    intros H. apply phase2_sig in H. destruct H as [_ [_ [_ [hts [E ->]]]]].
    rewrite map_length. unfold htlc_txs in E. rewrite (htlc_txs_from_length _ _ _ _ _ E).
    apply count_htlc_entries.
  Qed.

  Hypothesis sha_len : forall x, length (sha x) = 32%nat.
  Hypothesis rip_len : forall x, length (rip x) = 20%nat.
  Hypothesis W : wf pk_parse s k.
  (** what the validator guarantees about a content it accepts (validate_expiry: every expiry
      is below 500 000 000) *)
  Hypothesis accept_bounded : forall c, accept c = true -> bounded c.

  Lemma bounded_normalize c : bounded (normalize c) -> bounded c.
  Proof. unfold bounded, normalize. cbn [c_received]. apply Forall_sort_htlcs. Qed.

  Theorem entry_points_agree c sig hs :
    phase2 c = Ok (sig, hs) ->
    phase1 (canon c) (canon_ws sha rip s k c) (c_num c) (c_feerate c) (c_offered c) (c_received c) = Ok sig.
  Proof.
    intros H. apply phase2_sig in H. destruct H as [Hv [Ha [-> _]]].
    unfold sign_phase1.
    assert (Hl : length (t_outs (canon c)) = length (canon_ws sha rip s k c))
      by (unfold canon_tx, canon_ws; cbn [t_outs]; rewrite !map_length; reflexivity).
    rewrite Hl, Nat.eqb_refl, Hv. cbn [negb].
    destruct (decode_canon sha rip pk_parse sha_len rip_len s k W c) as [i [E [V1 V2]]].
    { apply bounded_normalize. apply accept_bounded. exact Ha. }
    rewrite E, V1, V2, content_eta, Ha. cbn [negb].
    rewrite canon_tx_normalize, (proj2 (tx_eqb_iff _ _) eq_refl). reflexivity.
  Qed.

  (** No transaction other than the canonical one verifies under the funding key: for an
      idealised signature scheme (a signature verifies for the one digest it was made for) and
      a digest that is injective on transactions. *)
  Variable PK : Type.
  Variable verify : PK -> bytes -> SIG -> bool.
  Variable funding_pub : PK.
  Hypothesis sig_valid : forall m, verify funding_pub m (sign funding_key m) = true.
  Hypothesis sig_binds : forall m m', verify funding_pub m' (sign funding_key m) = true -> m' = m.
  Hypothesis digest_inj : forall t t', digest t = digest t' -> t = t'.

  Lemma funding_sig_binds t :
    verify funding_pub (digest t) (sign funding_key (digest t)) = true
    /\ forall t', verify funding_pub (digest t') (sign funding_key (digest t)) = true -> t' = t.
  Proof. split; [apply sig_valid|]. intros t' Hv. apply digest_inj. apply sig_binds. exact Hv. Qed.

  Theorem no_foreign_tx_phase1 t ws num feerate offered received sig :
    phase1 t ws num feerate offered received = Ok sig ->
    verify funding_pub (digest t) sig = true
    /\ forall t', verify funding_pub (digest t') sig = true -> t' = t.
  Proof.
    intros H. destruct (phase1_canonical _ _ _ _ _ _ _ H) as (i & c & _ & _ & _ & _ & Et & _ & ->).
    rewrite <- Et. apply funding_sig_binds.
  Qed.

  Theorem no_foreign_tx_phase2 c sig hs :
    phase2 c = Ok (sig, hs) ->
    verify funding_pub (digest (canon c)) sig = true
    /\ forall t', verify funding_pub (digest t') sig = true -> t' = canon c.
  Proof. intros H. apply phase2_sig in H. destruct H as (_ & _ & -> & _). apply funding_sig_binds. Qed.
End Signing.

(** The model reads [sha] pointwise: whatever it computes with one hash it computes with a hash
    that agrees with it on every input.  Closed examples use this to run on the evaluator of
    Base/Sha256Eval.v. *)
Section ShaExt.
  Variables (sha sha' rip : bytes -> bytes) (pk_parse : bytes -> option bytes) (s : setup) (k : ckeys).
  Hypothesis E : forall x, sha x = sha' x.

  Lemma dsha_ext x : dsha sha x = dsha sha' x.
  Proof. unfold dsha; rewrite !E; reflexivity. Qed.
  Lemma hash160_ext x : hash160 sha rip x = hash160 sha' rip x.
  Proof. unfold hash160; rewrite E; reflexivity. Qed.
  Lemma p2wsh_ext x : p2wsh sha x = p2wsh sha' x.
  Proof. unfold p2wsh; rewrite E; reflexivity. Qed.
  Local Hint Rewrite dsha_ext hash160_ext p2wsh_ext : shaext.

  Lemma sighash_ext t i sc v ty : sighash sha t i sc v ty = sighash sha' t i sc v ty.
  Proof. unfold sighash, bip143_preimage; destruct (nth_error _ _); autorewrite with shaext; reflexivity. Qed.
  Lemma htlc_entry_ext o h : htlc_entry sha rip s k o h = htlc_entry sha' rip s k o h.
  Proof. unfold htlc_entry, htlc_script, rev160; autorewrite with shaext; reflexivity. Qed.
  Lemma sorted_entries_ext c : sorted_entries sha rip s k c = sorted_entries sha' rip s k c.
  Proof.
    unfold sorted_entries, entries, to_remote_entry, p2wsh_entry; autorewrite with shaext.
    rewrite (map_ext _ _ (htlc_entry_ext true)), (map_ext _ _ (htlc_entry_ext false)); reflexivity.
  Qed.
  Local Hint Rewrite sighash_ext sorted_entries_ext : shaext.
  Lemma canon_tx_ext c : canon_tx sha rip s k c = canon_tx sha' rip s k c.
  Proof. unfold canon_tx; autorewrite with shaext; reflexivity. Qed.
  Lemma canon_ws_ext c : canon_ws sha rip s k c = canon_ws sha' rip s k c.
  Proof. unfold canon_ws; autorewrite with shaext; reflexivity. Qed.
  Lemma commit_sighash_ext t : commit_sighash sha s t = commit_sighash sha' s t.
  Proof. unfold commit_sighash; autorewrite with shaext; reflexivity. Qed.
  Local Hint Rewrite canon_tx_ext canon_ws_ext commit_sighash_ext : shaext.

  Lemma htlc_txs_ext c : htlc_txs sha rip s k c = htlc_txs sha' rip s k c.
  Proof.
    unfold htlc_txs, txid_of; autorewrite with shaext.
    generalize (dsha sha' (ser_tx (canon_tx sha' rip s k c))) (c_feerate c) 0.
    induction (sorted_entries sha' rip s k c) as [|e l IH]; intros txid fr idx; cbn [htlc_txs_from]; [reflexivity|].
    unfold htlc_tx; autorewrite with shaext; rewrite !IH; reflexivity.
  Qed.

  Variables (SK SIG : Type) (sign : SK -> bytes -> SIG) (fk hk : SK) (vok : bool) (accept : content -> bool).

  Lemma sign_phase2_ext c :
    sign_phase2 sha rip s k SK SIG sign fk hk vok accept c = sign_phase2 sha' rip s k SK SIG sign fk hk vok accept c.
  Proof.
    unfold sign_phase2; autorewrite with shaext; rewrite htlc_txs_ext.
    destruct (htlc_txs sha' rip s k c); [|reflexivity].
    rewrite (map_ext _ (fun x => sign hk (htlc_sighash sha' s x))); [reflexivity|].
    intros [[t ws] a]; unfold htlc_sighash; autorewrite with shaext; reflexivity.
  Qed.

  Lemma decode_ext t ws : decode sha pk_parse s t ws = decode sha' pk_parse s t ws.
  Proof.
    unfold decode; generalize info0; induction (combine (t_outs t) ws) as [|[o w] l IH]; intros i;
      cbn [decode_outputs]; [reflexivity|].
    replace (handle_output sha pk_parse s i o w) with (handle_output sha' pk_parse s i o w)
      by (unfold handle_output; autorewrite with shaext; reflexivity).
    destruct (handle_output sha' pk_parse s i o w); [apply IH | reflexivity].
  Qed.

  Lemma sign_phase1_ext t ws num fr off rec :
    sign_phase1 sha rip pk_parse s k SK SIG sign fk vok accept t ws num fr off rec
    = sign_phase1 sha' rip pk_parse s k SK SIG sign fk vok accept t ws num fr off rec.
  Proof. unfold sign_phase1; rewrite decode_ext; destruct (decode sha' pk_parse s t ws); autorewrite with shaext; reflexivity. Qed.
End ShaExt.
