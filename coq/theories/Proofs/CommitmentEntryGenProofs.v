(** The two entry points of the commitment policy model ([validate_counterparty_commitment],
    [validate_holder_commitment] of Model/CommitmentPolicy.v) are what the translated source
    computes: Gen/EnforcementRulesGen.v holds the statement-by-statement translation of
    SimpleValidator's validate_counterparty_commitment_tx and validate_holder_commitment_tx
    (whole bodies), in which the answer of the call [self.validate_commitment_tx(..)] is a
    parameter; here that parameter is the translated validate_commitment_tx of
    Gen/CommitmentPolicyGen.v on the same commitment number, so the statements are about the
    whole functions.

    The model's [estate] carries the comparisons of points and contents as their answers;
    [abs_estate ge pt c] computes them from the source-level state [ge], the commitment point [pt]
    and the identity [c] of the commitment content (equality of opaque values is equality of
    identities).  [cp_info_same] is read by the model only in the retry branch
    ([commit_num + 1 = next_counterparty_commit_num]), where the previous info of that number is the
    current one.  The translated functions see the setup, the chain state and the content only as
    identities ([sid], [csid], [c]): they hand them to validate_commitment_tx and compare [c]. *)
From Coq Require Import String.
From VLS Require Import Base.Rust Model.CommitmentPolicy Gen.CommitmentPolicyGen Gen.EnforcementRulesGen
  Proofs.CommitmentPolicyGenProofs.
From VLS Require Gen.EnforcementGen Proofs.EnforcementGenProofs.
Require Import Lia.

Definition abs_estate (ge : EnforcementGen.res) (pt c : N) : estate :=
  mkEstate (EnforcementGen.res_next_holder_commit_num ge)
           (EnforcementGen.res_next_counterparty_commit_num ge)
           (EnforcementGen.res_next_counterparty_revoke_num ge)
           (EnforcementGen.res_channel_closed ge)
           (option_map (fun prev => pt =? prev) (EnforcementGen.res_current_counterparty_point ge))
           (opt_id_eqb (Some c) (EnforcementGen.res_current_counterparty_commit_info ge))
           (option_map (fun cur => c =? cur) (EnforcementGen.res_current_holder_commit_info ge)).

Lemma perr_alone swarn t :
  policy_err swarn (tag_name t) = of_res (perr (tag_filter swarn) t).
Proof. exact (check_alone swarn true t). Qed.

Theorem gen_counterparty_is_model prof swarn gp (ge : EnforcementGen.res) n pt eid pid sid csid c gs gcs gi :
  commit_fits gs gi = true ->
  gen_validate_counterparty_commitment_tx prof swarn
    (gen_validate_commitment_tx prof swarn gp HTLC_TIMEOUT_WEIGHT HTLC_SUCCESS_WEIGHT eid n pid gs gcs gi)
    ge n pt sid csid c =
  of_res (validate_counterparty_commitment est_new prof (tag_filter swarn) (abs_policy gp)
            (abs_estate ge pt c) (abs_setup gs) (abs_chain gcs) n (abs_info gi)).
Proof.
  intros Hfit. rewrite gen_commitment_is_model by exact Hfit.
  unfold gen_validate_counterparty_commitment_tx, validate_counterparty_commitment. cbv beta zeta.
  name_string t1 (tag_name T_previous_revoked). name_string t2 (tag_name T_retry_same).
  cbn [abs_estate next_cp_revoke_num next_cp_commit_num cp_point_same cp_info_same].
  rewrite of_res_andthen. apply bindR_cong. intros _.
  destruct (add_p prof (EnforcementGen.res_next_counterparty_revoke_num ge) 1) as [lim|]; [|reflexivity].
  norm. apply (step_check swarn _ T_previous_revoked).
  destruct (add_p prof n 1) as [n1|] eqn:E1; [|reflexivity].
  norm.
  destruct (n1 =? EnforcementGen.res_next_counterparty_commit_num ge) eqn:En; [|reflexivity].
  rewrite (EnforcementGenProofs.gen_prev_info_current prof ge n n1 E1 En).
  norm. cbv beta zeta. norm.
  rewrite of_res_andthen.
  rewrite <- (check_alone swarn (negb (opt_id_eqb (Some c) (EnforcementGen.res_current_counterparty_commit_info ge)))
                T_retry_same).
  destruct (EnforcementGen.res_current_counterparty_point ge) as [prev|]; cbn [option_map].
  - norm. rewrite <- (check_alone swarn (negb (pt =? prev)) T_retry_same). reflexivity.
  - rewrite <- (perr_alone swarn T_retry_same). reflexivity.
Qed.

Theorem gen_holder_is_model prof swarn gp (ge : EnforcementGen.res) n pt eid pid sid csid c gs gcs gi :
  commit_fits gs gi = true ->
  gen_validate_holder_commitment_tx prof swarn
    (gen_validate_commitment_tx prof swarn gp HTLC_TIMEOUT_WEIGHT HTLC_SUCCESS_WEIGHT eid n pid gs gcs gi)
    ge n pt sid csid c =
  of_res (validate_holder_commitment est_new prof (tag_filter swarn) (abs_policy gp)
            (abs_estate ge pt c) (abs_setup gs) (abs_chain gcs) n (abs_info gi)).
Proof.
  intros Hfit. rewrite gen_commitment_is_model by exact Hfit.
  unfold gen_validate_holder_commitment_tx, validate_holder_commitment. cbv beta zeta.
  name_string t1 (tag_name T_retry_same). name_string t2 (tag_name T_holder_not_revoked).
  name_string t3 (tag_name T_active_utxo).
  cbn [abs_estate next_holder_commit_num channel_closed holder_info_same].
  rewrite of_res_andthen. apply bindR_cong. intros _.
  destruct (add_p prof n 1) as [n1|]; [|reflexivity].
  norm. rewrite of_res_andthen.
  apply bindR_both; [|intros _].
  { destruct (n1 =? EnforcementGen.res_next_holder_commit_num ge); [|reflexivity].
    destruct (EnforcementGen.res_current_holder_commit_info ge) as [cur|]; cbn [option_map expect_some];
      [|reflexivity].
    norm. cbv beta zeta. norm. apply (check_alone swarn _ T_retry_same). }
  destruct (add_p prof n 2) as [n2|]; [|reflexivity].
  norm.
  apply (step_check swarn (n2 <=? EnforcementGen.res_next_holder_commit_num ge) T_holder_not_revoked).
  apply (check_alone swarn _ T_active_utxo).
Qed.
