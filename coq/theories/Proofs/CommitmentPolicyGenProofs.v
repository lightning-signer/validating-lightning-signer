(** The commitment rules of the policy model ([validate_expiry], [validate_fee],
    [validate_commitment], [validate_channel_value] of Model/CommitmentPolicy.v) are what the translated source computes:
    Gen/CommitmentPolicyGen.v is regenerated on every run (tools/gen_rustfn.py, statement by
    statement) from
      SimpleValidator::validate_expiry, ::validate_fee, ::validate_commitment_tx, ::validate_channel_value
      ChannelSetup::is_anchors, ::is_zero_fee_htlc, CommitmentInfo2::value_to_parties
    and on every value of the source's structs answers what the model answers on its abstraction,
    for every policy filter, in both build profiles, panics included.

    The generated records mirror the Rust structs (fields of foreign types are opaque identities);
    [abs_*] forget what the model does not speak about (payment hashes, keys, scripts, the funding
    outpoint).  The source's filter is a function of the tag string ([swarn]), the model's is that
    function on the names of its tags ([tag_filter]).

    [commit_fits] holds of every real input because of the Rust types: channel_value_sat is a u64,
    feerate_per_kw a u32, and the number of HTLCs such that the expected weight fits a usize.  The
    two LDK weights that enter the trim limits of non-zero-fee channel types are parameters of the
    translation; the theorem is for the values the model uses (663 / 703). *)
From Coq Require Import String.
From VLS Require Import Base.Rust Model.CommitmentPolicy Gen.TxUtilGen Gen.CommitmentPolicyGen
  Proofs.TxUtilGenProofs Proofs.CommitmentPolicyProofs.
From VLS Require Export Proofs.RustFacts.
Require Import Lia.

Definition abs_ctype (c : CommitmentType) : ctype :=
  match c with
  | CommitmentType_Legacy => Legacy
  | CommitmentType_StaticRemoteKey => StaticRemoteKey
  | CommitmentType_Anchors => Anchors
  | CommitmentType_AnchorsZeroFeeHtlc => AnchorsZeroFeeHtlc
  end.

Definition abs_policy (p : SimplePolicy) : policy :=
  mkPol (SimplePolicy_min_delay p) (SimplePolicy_max_delay p) (SimplePolicy_max_channel_size_sat p)
        (SimplePolicy_max_htlcs p) (SimplePolicy_max_htlc_value_sat p) (SimplePolicy_use_chain_state p)
        (SimplePolicy_min_feerate_per_kw p) (SimplePolicy_max_feerate_per_kw p).

(** the model's [shutdown] summarises the wallet's answer about the shutdown script; no
    commitment rule reads it *)
Definition abs_setup (s : ChannelSetup) : setup :=
  mkSetup (ChannelSetup_is_outbound s) (ChannelSetup_channel_value_sat s) (ChannelSetup_push_value_msat s)
          (ChannelSetup_holder_selected_contest_delay s) (ChannelSetup_counterparty_selected_contest_delay s)
          (abs_ctype (ChannelSetup_commitment_type s)) 0.

Definition abs_chain (c : ChainState) : chain :=
  mkChain (ChainState_current_height c) (ChainState_funding_depth c) (ChainState_closing_depth c).

Definition abs_htlc (h : HTLCInfo2) : htlc := (HTLCInfo2_value_sat h, HTLCInfo2_cltv_expiry h).

Definition abs_info (i : CommitmentInfo2) : cinfo :=
  mkInfo (CommitmentInfo2_is_counterparty_broadcaster i) (CommitmentInfo2_to_countersigner_value_sat i)
         (CommitmentInfo2_to_broadcaster_value_sat i) (map abs_htlc (CommitmentInfo2_offered_htlcs i))
         (map abs_htlc (CommitmentInfo2_received_htlcs i)) (CommitmentInfo2_feerate_per_kw i).

Definition tag_filter (swarn : string -> bool) : tag -> bool := fun t => swarn (tag_name t).

Definition of_res (r : res) : trap (result unit) :=
  match r with
  | Ok => Val (OkR tt)
  | Err t => Val (ErrR (tag_name t))
  | Panic => Trap
  end.

Lemma of_res_andthen a b : of_res (andthen a b) = bindR (of_res a) (fun _ => of_res b).
Proof. destruct a; reflexivity. Qed.

(** [if c { policy_err!(self, tag, ..) }] is the model's [check] ... *)
Lemma check_alone swarn (c : bool) t :
  (if c then policy_err swarn (tag_name t) else Val (OkR tt)) =
  of_res (check (tag_filter swarn) c t).
Proof.
  unfold check, perr, policy_err, tag_filter.
  destruct c; [destruct (swarn (tag_name t))|]; reflexivity.
Qed.

(** ... and, followed by the rest of the function, the model's [andthen] *)
Lemma step_check swarn (c : bool) t (g : trap (result unit)) (m : res) :
  g = of_res m ->
  bindR (if c then policy_err swarn (tag_name t) else Val (OkR tt)) (fun _ => g) =
  of_res (andthen (check (tag_filter swarn) c t) m).
Proof. intros ->. rewrite check_alone. symmetry. apply of_res_andthen. Qed.

(** the same on the text as generated ([policy_err!] is a block of its own that ends in a unit),
    so that a long function can be walked statement by statement without normalising it first *)
Lemma step_check_raw swarn (c : bool) t (g : trap (result unit)) (m : res) :
  g = of_res m ->
  bindR (if c then bindR (policy_err swarn (tag_name t)) (fun _ => Val (OkR tt)) else Val (OkR tt))
        (fun _ => g) =
  of_res (andthen (check (tag_filter swarn) c t) m).
Proof. rewrite bindR_unit. apply step_check. Qed.

Lemma zero_fee_abs c :
  is_zero_fee_htlc (abs_ctype c) = CommitmentType_eqb c CommitmentType_AnchorsZeroFeeHtlc.
Proof. destruct c; reflexivity. Qed.

Lemma anchors_abs c :
  is_anchors (abs_ctype c) =
  CommitmentType_eqb c CommitmentType_Anchors || CommitmentType_eqb c CommitmentType_AnchorsZeroFeeHtlc.
Proof. destruct c; reflexivity. Qed.

Lemma n_htlcs_abs gi :
  n_htlcs (abs_info gi) =
  len_of (CommitmentInfo2_offered_htlcs gi) + len_of (CommitmentInfo2_received_htlcs gi).
Proof.
  unfold n_htlcs, len_of. cbn [abs_info offered received]. rewrite !map_length. lia.
Qed.

Lemma gen_value_to_parties_is_model prof gi :
  gen_CommitmentInfo2_value_to_parties prof gi = Val (holder_value (abs_info gi), cp_value (abs_info gi)).
Proof.
  unfold gen_CommitmentInfo2_value_to_parties, holder_value, cp_value.
  cbn [abs_info cp_broadcaster to_broadcaster to_countersigner].
  destruct (CommitmentInfo2_is_counterparty_broadcaster gi); reflexivity.
Qed.

(** the trim limit of one direction: [MIN_DUST_LIMIT_SATOSHIS + feerate as u64 * weight / 1000]
    neither traps nor wraps for a u32 feerate and an LDK weight *)
Lemma limit_value prof (zf : bool) f w :
  f <= U32MAX -> w <= 1000 ->
  (if zf then Val 354
   else (t1 <- mul_p prof f w ;; t2 <- div_p t1 1000 ;; t3 <- add_p prof 330 t2 ;; Val t3)) =
  Val (if zf then 354 else 330 + f * w / 1000).
Proof.
  intros Hf Hw. destruct zf; [reflexivity|].
  assert (Hm : f * w <= 4294967295 * 1000) by (unfold U32MAX in Hf; nia).
  rewrite (mul_p_ok prof f w) by (unfold U64MAX; lia). cbn [bindT].
  rewrite div_p_ok by discriminate. cbn [bindT].
  assert (Hq : f * w / 1000 <= f * w) by (apply N.div_le_upper_bound; lia).
  rewrite (add_p_ok prof 330 (f * w / 1000)) by (unfold U64MAX; lia). reflexivity.
Qed.

Theorem gen_expiry_is_model prof swarn gp name expiry cur :
  gen_validate_expiry prof swarn gp name expiry cur =
  of_res (validate_expiry prof (tag_filter swarn) (abs_policy gp) expiry cur).
Proof.
  unfold gen_validate_expiry, validate_expiry. cbv beta zeta. name_string n_cltv (tag_name T_cltv_range).
  cbn [abs_policy use_chain_state min_delay max_delay].
  change add_p32 with add32_p. unfold MAX_CLTV_EXPIRY.
  norm.
  apply (step_check swarn _ T_cltv_range).
  destruct (SimplePolicy_use_chain_state gp); [|reflexivity].
  destruct (add32_p prof cur (SimplePolicy_min_delay gp)) as [lo|]; [|reflexivity].
  norm.
  apply (step_check swarn _ T_cltv_range).
  destruct (add32_p prof cur (SimplePolicy_max_delay gp)) as [hi|]; [|reflexivity].
  norm.
  apply (check_alone swarn _ T_cltv_range).
Qed.

Theorem gen_fee_is_model prof swarn gp sum_inputs sum_outputs w :
  (sum_inputs <=? U64MAX) = true ->
  gen_validate_fee prof swarn gp (tag_name T_fee_range) sum_inputs sum_outputs w =
  of_res (validate_fee est_new (tag_filter swarn) (abs_policy gp) sum_inputs sum_outputs w).
Proof.
  intros Hfit. apply N.leb_le in Hfit.
  unfold gen_validate_fee, validate_fee. cbv beta zeta.
  cbn [abs_policy min_feerate max_feerate].
  unfold sub_checked. destruct (N.leb_spec sum_outputs sum_inputs); cbn [ok_or bindR of_res]; [|reflexivity].
  rewrite gen_estimate_spec by lia. destruct (w =? 0); [reflexivity|]. unfold est_new.
  norm.
  apply (step_check swarn _ T_fee_range).
  apply (check_alone swarn _ T_fee_range).
Qed.

Definition loop_res (p : res * N) : trap (result N) :=
  match p with
  | (Ok, a) => Val (OkR a)
  | (Err t, _) => Val (ErrR (tag_name t))
  | (Panic, _) => Trap
  end.

Lemma htlc_loop_cons prof warn pol cur limit h r acc :
  htlc_loop prof warn pol cur limit (h :: r) acc =
  match htlc_loop prof warn pol cur limit [h] acc with
  | (Ok, acc') => htlc_loop prof warn pol cur limit r acc'
  | bad => bad
  end.
Proof.
  destruct h as [v e]. cbn [htlc_loop].
  destruct (validate_expiry prof warn pol e cur); try reflexivity.
  destruct (add_checked acc v); try reflexivity.
  destruct (check warn (v <? limit) T_outputs_trimmed); reflexivity.
Qed.

(** a loop whose body is one step of the model's loop is the model's loop, and an error or a
    panic in it ends the function *)
Lemma fold_loop_bind prof swarn gp cur limit (body : N -> HTLCInfo2 -> trap (result N))
    (k : N -> trap (result unit)) (m : N -> res) :
  (forall a h, body a h =
               loop_res (htlc_loop prof (tag_filter swarn) (abs_policy gp) cur limit [abs_htlc h] a)) ->
  (forall a, k a = of_res (m a)) ->
  forall hs acc,
    bindR (fold_r body hs acc) k =
    of_res (match htlc_loop prof (tag_filter swarn) (abs_policy gp) cur limit (map abs_htlc hs) acc with
            | (Ok, a) => m a
            | (bad, _) => bad
            end).
Proof.
  intros Hbody Hk. induction hs as [|h r IH]; intros acc; [apply Hk|].
  cbn [fold_r map]. rewrite htlc_loop_cons, Hbody.
  destruct (htlc_loop prof (tag_filter swarn) (abs_policy gp) cur limit [abs_htlc h] acc) as [[|t|] a];
    cbn [loop_res bindR]; [apply IH | reflexivity | reflexivity].
Qed.

(** one step of the model's loop, in the shape of the source's loop body *)
Lemma loop_step prof swarn gp cur limit h a :
  loop_res (htlc_loop prof (tag_filter swarn) (abs_policy gp) cur limit [abs_htlc h] a) =
  (t1 <-? of_res (validate_expiry prof (tag_filter swarn) (abs_policy gp) (HTLCInfo2_cltv_expiry h) cur) ;;
   t2 <-? ok_or (add_checked a (HTLCInfo2_value_sat h)) (tag_name T_payment_velocity) ;;
   t3 <-? of_res (check (tag_filter swarn) (HTLCInfo2_value_sat h <? limit) T_outputs_trimmed) ;;
   Val (OkR t2)).
Proof.
  unfold abs_htlc. cbn [htlc_loop].
  destruct (validate_expiry prof (tag_filter swarn) (abs_policy gp) (HTLCInfo2_cltv_expiry h) cur);
    cbn [of_res bindR loop_res]; try reflexivity.
  destruct (add_checked a (HTLCInfo2_value_sat h)); cbn [ok_or bindR loop_res]; try reflexivity.
  destruct (check (tag_filter swarn) (HTLCInfo2_value_sat h <? limit) T_outputs_trimmed);
    reflexivity.
Qed.

Definition commit_fits (gs : ChannelSetup) (gi : CommitmentInfo2) : bool :=
  (ChannelSetup_channel_value_sat gs <=? U64MAX) &&
  (CommitmentInfo2_feerate_per_kw gi <=? U32MAX) &&
  ((len_of (CommitmentInfo2_offered_htlcs gi) + len_of (CommitmentInfo2_received_htlcs gi)) * 172 + 1124
   <=? U64MAX).

(** the body of either loop of the source (they differ in the name string and the limit) is one step of
    the model's loop *)
Lemma gen_loop_body prof swarn gp name cur limit a h :
  (t1 <-? gen_validate_expiry prof swarn gp name (HTLCInfo2_cltv_expiry h) cur ;;
   t2 <-? ok_or (add_checked a (HTLCInfo2_value_sat h)) (tag_name T_payment_velocity) ;;
   t3 <-? (if HTLCInfo2_value_sat h <? limit
           then (u <-? policy_err swarn (tag_name T_outputs_trimmed) ;; Val (OkR tt)) else Val (OkR tt)) ;;
   Val (OkR t2)) =
  loop_res (htlc_loop prof (tag_filter swarn) (abs_policy gp) cur limit [abs_htlc h] a).
Proof. rewrite loop_step, gen_expiry_is_model, bindR_unit, <- check_alone. reflexivity. Qed.

Theorem gen_commitment_is_model prof swarn gp estate n point gs gcs gi :
  commit_fits gs gi = true ->
  gen_validate_commitment_tx prof swarn gp HTLC_TIMEOUT_WEIGHT HTLC_SUCCESS_WEIGHT
                             estate n point gs gcs gi =
  of_res (validate_commitment est_new prof (tag_filter swarn) (abs_policy gp)
                              (abs_setup gs) (abs_chain gcs) n (abs_info gi)).
Proof.
  intros Hfit. unfold commit_fits in Hfit.
  apply andb_prop in Hfit as [Hfit Hlen]. apply andb_prop in Hfit as [Hcv Hfr]. apply N.leb_le in Hlen, Hfr.
  set (no := len_of (CommitmentInfo2_offered_htlcs gi)) in *.
  set (nr := len_of (CommitmentInfo2_received_htlcs gi)) in *.
  assert (Hsum : no + nr <= U64MAX) by (unfold U64MAX in *; lia).
  unfold gen_validate_commitment_tx, validate_commitment, initial_rules, offered_limit, received_limit.
  rewrite gen_value_to_parties_is_model.
  name_string n_trim (tag_name T_outputs_trimmed). name_string n_count (tag_name T_htlc_count).
  name_string n_vel (tag_name T_payment_velocity). name_string n_infl (tag_name T_inflight).
  name_string n_fee (tag_name T_fee_range). name_string n_first (tag_name T_first_no_htlcs).
  name_string n_init (tag_name T_initial_funding_value).
  rewrite n_htlcs_abs. fold no nr.
  cbn [abs_setup abs_chain abs_info abs_policy commitment_type channel_value is_outbound push_value_msat
       current_height to_broadcaster to_countersigner offered received feerate cp_broadcaster
       max_htlcs max_htlc_value].
  rewrite zero_fee_abs, anchors_abs.
  unfold MIN_CHAN_DUST_LIMIT, MIN_DUST_LIMIT, HTLC_TIMEOUT_WEIGHT, HTLC_SUCCESS_WEIGHT.
  cbv beta zeta.
  unfold gen_ChannelSetup_is_zero_fee_htlc, gen_ChannelSetup_is_anchors.
  rewrite !(add_p_ok prof no nr) by exact Hsum. cbn [bindT].
  rewrite !limit_value by (unfold U32MAX in *; lia). cbn [bindT].
  apply (step_check_raw swarn _ T_outputs_trimmed).
  apply (step_check_raw swarn _ T_outputs_trimmed).
  apply (step_check_raw swarn _ T_htlc_count).
  apply fold_loop_bind; [intros a h; apply gen_loop_body|]. intros acc1.
  apply fold_loop_bind; [intros a h; apply gen_loop_body|]. intros acc2.
  apply (step_check_raw swarn _ T_inflight).
  rewrite gen_weight_is_model by exact Hlen. cbn [bindT].
  destruct (add_checked (CommitmentInfo2_to_broadcaster_value_sat gi)
                        (CommitmentInfo2_to_countersigner_value_sat gi)) as [s1|];
    cbn [ok_or bindR of_res tag_name]; [|reflexivity].
  destruct (add_checked s1 acc2) as [sum_outputs|]; cbn [ok_or bindR of_res tag_name]; [|reflexivity].
  rewrite (gen_fee_is_model prof swarn gp) by exact Hcv.
  rewrite of_res_andthen. apply bindR_cong. intros _.
  cbn [bindT]. cbv beta iota zeta. norm.
  destruct (n =? 0); [|reflexivity].
  apply (step_check swarn _ T_first_no_htlcs).
  destruct (ChannelSetup_is_outbound gs); [|reflexivity].
  rewrite div_p_ok by discriminate. norm.
  apply (check_alone swarn _ T_initial_funding_value).
Qed.

Lemma of_res_ok r : of_res r = Val (OkR tt) -> r = Ok.
Proof. destruct r; cbn [of_res]; intros H; [reflexivity | discriminate H | discriminate H]. Qed.

(** SimpleValidator::validate_channel_value (policy-funding-max) *)
Lemma gen_channel_value_is_model prof swarn gp gs :
  gen_validate_channel_value prof swarn gp gs =
  of_res (validate_channel_value (tag_filter swarn) (abs_policy gp) (abs_setup gs)).
Proof. unfold gen_validate_channel_value. norm. apply (check_alone swarn _ T_funding_max). Qed.

