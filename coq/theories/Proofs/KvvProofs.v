(** Proofs about Model/Kvv.v.  The version rule enforces an order on entries ([ele]); every write
    request to the memory store is a batch ([does]); the disk store is the memory store [lift]ed
    (cache = versions of the table); [c_effect] lists what one request can do to the cloud-staged
    store. *)
From VLS Require Import Base.U64 Base.Eqb Model.Kvv.
From VLS Require Proofs.ListSort.

Section Runs.
  Context {St Op : Type} (step : St -> Op -> St) (Inv : St -> Prop) (R : St -> St -> Prop).
  Hypothesis R_refl : forall s, R s s.
  Hypothesis R_trans : forall a b c, R a b -> R b c -> R a c.
  Lemma run_inv_rel :
    (forall s o, Inv s -> Inv (step s o) /\ R s (step s o)) ->
    forall ops s, Inv s -> Inv (fold_left step ops s) /\ R s (fold_left step ops s).
  Proof.
    intros H. induction ops as [|o r IH]; intros s Hi; cbn [fold_left]; [auto|].
    destruct (H s o Hi) as [Hi1 R1]. destruct (IH _ Hi1). eauto.
  Qed.
End Runs.

Lemma fst_let {A B C D} (x : A * B) (g : A -> C) (f : B -> D) :
  fst (let '(a, b) := x in (g a, f b)) = g (fst x).
Proof. destruct x; reflexivity. Qed.
Lemma snd_let {A B C} (x : A * B) (f : B -> C) : snd (let '(a, b) := x in (a, f b)) = f (snd x).
Proof. destruct x; reflexivity. Qed.

Lemma kcmp_ok : ListSort.cmp_ok kcmp.
Proof. exact (ListSort.lex_cmp_ok N.compare ListSort.N_cmp_ok). Qed.
Lemma kcmp_eq_iff a b : kcmp a b = Eq <-> a = b.
Proof. apply (ListSort.cmp_eq_iff kcmp_ok). Qed.
Lemma kcmp_refl a : kcmp a a = Eq.
Proof. apply (ListSort.cmp_refl kcmp_ok). Qed.
Lemma klt_trans a b c : kcmp a b = Lt -> kcmp b c = Lt -> kcmp a c = Lt.
Proof. apply (ListSort.cmp_lt_trans kcmp_ok). Qed.
Lemma klt_irrefl a : kcmp a a <> Lt.
Proof. rewrite kcmp_refl. discriminate. Qed.
Lemma kcmp_gt_lt a b : kcmp a b = Gt -> kcmp b a = Lt.
Proof. apply (ListSort.cmp_gt_lt kcmp_ok). Qed.
Lemma kcmp_lt_gt a b : kcmp a b = Lt -> kcmp b a = Gt.
Proof. apply (ListSort.cmp_lt_gt kcmp_ok). Qed.
Lemma kcmp_neq a b : a <> b -> kcmp a b <> Eq.
Proof. intros H E. apply kcmp_eq_iff in E. contradiction. Qed.

Lemma val_eqb_eq a b : val_eqb a b = true <-> a = b.
Proof. apply list_eqb_ok. intros; apply N.eqb_eq. Qed.
Lemma val_eqb_refl a : val_eqb a a = true.
Proof. apply val_eqb_eq. reflexivity. Qed.
Lemma vv_eqb_eq a b : vv_eqb a b = true <-> a = b.
Proof. exact (prod_eqb_ok (A := N) (B := value) Eqb_N_ok val_eqb_eq a b). Qed.

Section Assoc.
  Context {V : Type}.
  Implicit Types s : list (key * V).

  Lemma lookup_upsert k k' v s :
    lookup k' (upsert k v s) = match kcmp k' k with Eq => Some v | _ => lookup k' s end.
  Proof.
    induction s as [|[k2 v2] r IH]; cbn [upsert lookup]; [reflexivity|].
    destruct (kcmp k k2) eqn:E; cbn [lookup].
    - apply kcmp_eq_iff in E. subst k2. destruct (kcmp k' k); reflexivity.
    - reflexivity.
    - rewrite IH. destruct (kcmp k' k2) eqn:E2; [|reflexivity|reflexivity].
      apply kcmp_eq_iff in E2. subst k2. rewrite (kcmp_gt_lt _ _ E). reflexivity.
  Qed.

  Definition keys_above (k : key) s : Prop := Forall (fun e => kcmp k (fst e) = Lt) s.
  Fixpoint ksorted s : Prop :=
    match s with
    | [] => True
    | (k, _) :: r => keys_above k r /\ ksorted r
    end.

  Lemma keys_above_In k s e : keys_above k s -> In e s -> kcmp k (fst e) = Lt.
  Proof. intros A. apply (proj1 (Forall_forall _ _) A). Qed.
  Lemma keys_above_trans k k' s : kcmp k k' = Lt -> keys_above k' s -> keys_above k s.
  Proof. intros H. apply Forall_impl. intros e. apply klt_trans, H. Qed.
  Lemma Forall_upsert (P : key * V -> Prop) k v s : P (k, v) -> Forall P s -> Forall P (upsert k v s).
  Proof.
    intros H A. induction A as [|[k' v'] r A1 A2 IH]; cbn [upsert]; [auto|].
    destruct (kcmp k k'); auto.
  Qed.
  Lemma upsert_sorted k v s : ksorted s -> ksorted (upsert k v s).
  Proof.
    induction s as [|[k' v'] r IH]; cbn [upsert ksorted]; intros H.
    - split; [constructor|exact I].
    - destruct H as [A S]. destruct (kcmp k k') eqn:E; cbn [ksorted].
      + apply kcmp_eq_iff in E. subst. auto.
      + split; auto. constructor; auto. eapply keys_above_trans; eauto.
      + split; auto. apply Forall_upsert; auto. apply kcmp_gt_lt, E.
  Qed.
  Lemma lookup_above k s : keys_above k s -> lookup k s = None.
  Proof.
    induction 1 as [|[k' v'] r A1 A2 IH]; cbn [lookup]; auto. cbn [fst] in A1. rewrite A1. exact IH.
  Qed.
  Lemma lookup_In k v s : ksorted s -> (In (k, v) s <-> lookup k s = Some v).
  Proof.
    induction s as [|[k' v'] r IH]; cbn [ksorted In lookup].
    - intros _. split; [tauto|discriminate].
    - intros [A S]. rewrite (IH S). destruct (kcmp k k') eqn:E.
      + apply kcmp_eq_iff in E. subst k'. rewrite (lookup_above k r A). split.
        * intros [H|H]; congruence.
        * intros H. left. congruence.
      + split; [intros [H|H]; [|exact H]|auto]. inversion H; subst. rewrite kcmp_refl in E. discriminate.
      + split; [intros [H|H]; [|exact H]|auto]. inversion H; subst. rewrite kcmp_refl in E. discriminate.
  Qed.
  Lemma sorted_ext s : forall s', ksorted s -> ksorted s' ->
    (forall k, lookup k s = lookup k s') -> s = s'.
  Proof.
    induction s as [|[k v] r IH]; intros [|[k' v'] r'] S S' H.
    - reflexivity.
    - specialize (H k'). cbn [lookup] in H. rewrite kcmp_refl in H. discriminate H.
    - specialize (H k). cbn [lookup] in H. rewrite kcmp_refl in H. discriminate H.
    - cbn [ksorted] in S, S'. destruct S as [A S], S' as [A' S'].
      destruct (kcmp k k') eqn:E.
      + apply kcmp_eq_iff in E. subst k'.
        pose proof (H k) as Hk. cbn [lookup] in Hk. rewrite kcmp_refl in Hk. injection Hk as ->.
        f_equal. apply IH; [exact S | exact S' |]. intros x.
        destruct (kcmp x k) eqn:Ex.
        * apply kcmp_eq_iff in Ex. subst x. rewrite !lookup_above by assumption. reflexivity.
        * specialize (H x). cbn [lookup] in H. rewrite Ex in H. exact H.
        * specialize (H x). cbn [lookup] in H. rewrite Ex in H. exact H.
      + exfalso. specialize (H k). cbn [lookup] in H. rewrite kcmp_refl, E in H.
        rewrite (lookup_above k r') in H by (eapply keys_above_trans; eassumption). discriminate H.
      + exfalso. apply kcmp_gt_lt in E. specialize (H k'). cbn [lookup] in H. rewrite kcmp_refl, E in H.
        rewrite (lookup_above k' r) in H by (eapply keys_above_trans; eassumption). discriminate H.
  Qed.
End Assoc.

Lemma versions_of_upsert k ver val t :
  versions_of (upsert k (ver, val) t) = upsert k ver (versions_of t).
Proof.
  unfold versions_of. induction t as [|[k' [v' x']] r IH]; cbn [upsert map fst snd]; auto.
  destruct (kcmp k k'); cbn [map fst snd]; auto. rewrite IH. reflexivity.
Qed.
Lemma lookup_versions_of k t : lookup k (versions_of t) = version_of t k.
Proof.
  unfold versions_of, version_of. induction t as [|[k' [v' x']] r IH]; cbn [lookup map fst snd option_map]; auto.
  destruct (kcmp k k'); auto.
Qed.

Definition vle (a b : option N) : Prop :=
  match a with
  | None => True
  | Some x => match b with Some y => x <= y | None => False end
  end.
Lemma vle_refl a : vle a a.
Proof. destruct a; cbn; lia. Qed.
Lemma vle_trans a b c : vle a b -> vle b c -> vle a c.
Proof. destruct a, b, c; cbn; try tauto; lia. Qed.

(** the order on entries that the version rule enforces: a key never disappears, its
    version never drops, and at an unchanged version the content stays *)
Definition ahead_of (cur : option vv) (ver : N) : Prop :=
  match cur with None => True | Some (v0, _) => v0 < ver end.
Definition ele (a b : option vv) : Prop :=
  match a, b with
  | None, _ => True
  | Some _, None => False
  | Some (v0, x0), Some (v, x) => v0 < v \/ (v0 = v /\ x0 = x)
  end.
Lemma ele_refl a : ele a a.
Proof. destruct a as [[]|]; cbn; auto. Qed.
Lemma ele_trans a b c : ele a b -> ele b c -> ele a c.
Proof.
  destruct a as [[]|], b as [[]|], c as [[]|]; cbn; try tauto.
  intros [|[]] [|[]]; subst; auto; left; lia.
Qed.
Lemma ele_vle a b : ele a b -> vle (option_map fst a) (option_map fst b).
Proof. destruct a as [[]|], b as [[]|]; cbn; try tauto. intros [|[]]; lia. Qed.
Lemma ahead_ele cur ver val : ahead_of cur ver -> ele cur (Some (ver, val)).
Proof. destruct cur as [[]|]; cbn; auto. Qed.
Lemma not_ele_lower v0 val0 ver val : ver < v0 -> ~ ele (Some (v0, val0)) (Some (ver, val)).
Proof. cbn. lia. Qed.
Lemma not_ele_other ver val0 val : val0 <> val -> ~ ele (Some (ver, val0)) (Some (ver, val)).
Proof. cbn. intros N [H|[_ H]]; [lia|contradiction]. Qed.

Definition grows (s s' : store) : Prop := forall k, ele (lookup k s) (lookup k s').
Lemma grows_refl s : grows s s.
Proof. intros k. apply ele_refl. Qed.
Lemma grows_trans a b c : grows a b -> grows b c -> grows a c.
Proof. intros H1 H2 k. eapply ele_trans; [apply H1|apply H2]. Qed.

Lemma judge_spec cur ver val :
  match judge cur ver val with
  | Write => ahead_of cur ver
  | Same => cur = Some (ver, val)
  | RefuseLt | RefuseEq => ~ ele cur (Some (ver, val))
  end.
Proof.
  destruct cur as [[v0 x0]|]; cbn [judge ahead_of ele]; [|exact I].
  destruct (N.ltb_spec ver v0); [lia|]. destruct (N.eqb_spec ver v0) as [->|]; [|lia].
  destruct (val_eqb x0 val) eqn:E; [apply val_eqb_eq in E; subst; reflexivity|].
  intros [|[_ ->]]; [lia|]. rewrite val_eqb_refl in E. discriminate.
Qed.
Lemma judge_ahead cur ver val : ahead_of cur ver -> judge cur ver val = Write.
Proof.
  destruct cur as [[v0 x0]|]; cbn [judge ahead_of]; [intros A|reflexivity].
  destruct (N.ltb_spec ver v0); [lia|]. destruct (N.eqb_spec ver v0); [lia|reflexivity].
Qed.

Fixpoint last_entry (k : key) (l : list kvv) : option vv :=
  match l with
  | [] => None
  | (k', e) :: r =>
      match last_entry k r with
      | Some x => Some x
      | None => match kcmp k k' with Eq => Some e | _ => None end
      end
  end.

Lemma batch_go_cons (s : store) k e l s' :
  batch_go s ((k, e) :: l) = Some s' ->
  ele (lookup k s) (Some e) /\
  exists s1, batch_go s1 l = Some s' /\ (ksorted s -> ksorted s1) /\
    forall k', lookup k' s1 = match kcmp k' k with Eq => Some e | _ => lookup k' s end.
Proof.
  destruct e as [ver val]. cbn [batch_go]. pose proof (judge_spec (lookup k s) ver val) as J.
  destruct (judge (lookup k s) ver val); try discriminate; intros G.
  - split; [apply ahead_ele, J|]. exists (upsert k (ver, val) s).
    split; [exact G|]. split; [apply upsert_sorted|]. intros k'. apply lookup_upsert.
  - split; [rewrite J; apply ele_refl|]. exists s. split; [exact G|]. split; [auto|].
    intros k'. destruct (kcmp k' k) eqn:C; auto. apply kcmp_eq_iff in C. subst. exact J.
Qed.
Lemma batch_go_app l1 : forall s l2,
  batch_go s (l1 ++ l2) = match batch_go s l1 with Some s1 => batch_go s1 l2 | None => None end.
Proof.
  induction l1 as [|[k [ver val]] r IH]; intros s l2; cbn [batch_go app]; auto.
  destruct (judge (lookup k s) ver val); auto.
Qed.
Lemma batch_go_sorted l : forall s s', ksorted s -> batch_go s l = Some s' -> ksorted s'.
Proof.
  induction l as [|[k e] r IH]; intros s s' S G.
  - inversion G. subst. exact S.
  - apply batch_go_cons in G. destruct G as (_ & s1 & G & S1 & _). exact (IH _ _ (S1 S) G).
Qed.
Lemma batch_go_spec l : forall s s' k,
  batch_go s l = Some s' ->
  lookup k s' = match last_entry k l with Some e => Some e | None => lookup k s end.
Proof.
  induction l as [|[k0 e] r IH]; intros s s' k G; cbn [last_entry].
  - inversion G. reflexivity.
  - apply batch_go_cons in G. destruct G as (_ & s1 & G & _ & L).
    rewrite (IH _ _ k G), L. destruct (last_entry k r); [|destruct (kcmp k k0)]; reflexivity.
Qed.
Lemma batch_go_ele l : forall s s' k, batch_go s l = Some s' -> ele (lookup k s) (lookup k s').
Proof.
  induction l as [|[k0 e] r IH]; intros s s' k G.
  - inversion G. apply ele_refl.
  - apply batch_go_cons in G. destruct G as (A & s1 & G & _ & L).
    eapply ele_trans; [|eapply IH; exact G]. rewrite L.
    destruct (kcmp k k0) eqn:C; try apply ele_refl. apply kcmp_eq_iff in C. subst. exact A.
Qed.
Lemma batch_go_entry l s s' k e :
  batch_go s l = Some s' -> In (k, e) l -> ele (lookup k s) (Some e).
Proof.
  intros G H. apply in_split in H. destruct H as (l1 & l2 & ->). rewrite batch_go_app in G.
  destruct (batch_go s l1) as [s1|] eqn:G1; [|discriminate]. apply batch_go_cons in G.
  eapply ele_trans; [apply (batch_go_ele l1 _ _ k G1)|apply G].
Qed.

Lemma m_batch_atomic s l s' r :
  m_batch s l = (s', r) ->
  (r = RErr /\ s' = s) \/ (r = ROk /\ batch_go s l = Some s').
Proof.
  unfold m_batch. destruct (batch_go s l) as [s1|]; intros E; inversion E; subst; auto.
Qed.
Lemma m_batch_grows s l : grows s (fst (m_batch s l)).
Proof.
  intros k. unfold m_batch. destruct (batch_go s l) as [s1|] eqn:E; cbn [fst]; [|apply ele_refl].
  apply (batch_go_ele l), E.
Qed.
Lemma m_batch_refused s l1 s1 k e l2 :
  batch_go s l1 = Some s1 -> ~ ele (lookup k s1) (Some e) -> m_batch s (l1 ++ (k, e) :: l2) = (s, RErr).
Proof.
  intros G N. unfold m_batch. rewrite batch_go_app, G.
  destruct (batch_go s1 ((k, e) :: l2)) eqn:Q; [|reflexivity]. apply batch_go_cons in Q. tauto.
Qed.
Lemma m_batch_entry_refused s l k e :
  In (k, e) l -> ~ ele (lookup k s) (Some e) -> m_batch s l = (s, RErr).
Proof.
  intros H N. unfold m_batch. destruct (batch_go s l) eqn:G; [|reflexivity].
  destruct N. eapply batch_go_entry; eauto.
Qed.

Lemma m_pwv_is_batch s k ver val : m_pwv s k ver val = m_batch s [(k, (ver, val))].
Proof. unfold m_pwv, m_batch. cbn [batch_go]. destruct (judge (lookup k s) ver val); reflexivity. Qed.

Lemma m_pwv_ok s k ver val s' : m_pwv s k ver val = (s', ROk) -> lookup k s' = Some (ver, val).
Proof.
  rewrite m_pwv_is_batch. intros E. apply m_batch_atomic in E. destruct E as [[E _]|[_ G]]; [discriminate|].
  rewrite (batch_go_spec _ _ _ k G). cbn [last_entry]. rewrite kcmp_refl. reflexivity.
Qed.
Lemma m_put_version s k val s' :
  m_put Debug s k val = (s', ROk) ->
  version_of s' k = match version_of s k with None => Some 0 | Some v => Some (v + 1) end.
Proof.
  unfold m_put, next_version, add_p. destruct (version_of s k) as [v|].
  - destruct (v + 1 <=? U64MAX); [|discriminate]. intros E. unfold version_of. rewrite (m_pwv_ok _ _ _ _ _ E). reflexivity.
  - intros E. unfold version_of. rewrite (m_pwv_ok _ _ _ _ _ E). reflexivity.
Qed.

(** the writes a request makes when it is answered Ok(()): key, explicit version if the request
    names one, value *)
Definition write : Type := key * option N * value.
Definition accepted_writes (o : op) (x : obs) : list write :=
  match x with
  | OUnit =>
      match o with
      | Put k v => [(k, None, v)]
      | Delete k => [(k, None, [])]
      | PutV k ver v => [(k, Some ver, v)]
      | Batch l | Unlogged l => map (fun e => (fst e, Some (fst (snd e)), snd (snd e))) l
      | _ => []
      end
  | _ => []
  end.
Fixpoint last_write (k : key) (ws : list write) : option (option N * value) :=
  match ws with
  | [] => None
  | (k', ov, val) :: r =>
      match last_write k r with
      | Some x => Some x
      | None => match kcmp k k' with Eq => Some (ov, val) | _ => None end
      end
  end.

(** what a read of [k] must return given the last accepted write to [k] *)
Definition agrees (cur : option vv) (w : option (option N * value)) : Prop :=
  match w with
  | None => cur = None
  | Some (ov, val) =>
      exists ver, cur = Some (ver, val) /\ match ov with Some v => ver = v | None => True end
  end.
Definition later (w0 w1 : option (option N * value)) := match w1 with Some x => Some x | None => w0 end.

Lemma later_assoc w0 w1 w2 : later (later w0 w1) w2 = later w0 (later w1 w2).
Proof. destruct w2; reflexivity. Qed.
Lemma later_none w : later None w = w.
Proof. destruct w; reflexivity. Qed.
Lemma last_write_app k ws1 ws2 : last_write k (ws1 ++ ws2) = later (last_write k ws1) (last_write k ws2).
Proof.
  unfold later. induction ws1 as [|[[k' ov] val] r IH]; cbn [app last_write].
  - destruct (last_write k ws2); reflexivity.
  - rewrite IH. destruct (last_write k ws2); reflexivity.
Qed.

(** if [cur] is what a read of [k] must return after some earlier writes (the last of them to [k]: [w0]),
    [cur'] is what it must return after those and [ws] *)
Definition tracks (k : key) (cur : option vv) (ws : list write) (cur' : option vv) : Prop :=
  forall w0, agrees cur w0 -> agrees cur' (later w0 (last_write k ws)).
Lemma tracks_nil k cur : tracks k cur [] cur.
Proof. intros w0 A. exact A. Qed.
Lemma tracks_app k a ws1 b ws2 c : tracks k a ws1 b -> tracks k b ws2 c -> tracks k a (ws1 ++ ws2) c.
Proof. intros H1 H2 w0 A. rewrite last_write_app, <- later_assoc. apply H2, H1, A. Qed.
Lemma tracks_forget k a k0 n v b : tracks k a [(k0, Some n, v)] b -> tracks k a [(k0, None, v)] b.
Proof.
  intros H w0 A. specialize (H w0 A). cbn [last_write] in *.
  destruct (kcmp k k0); cbn [later agrees] in *; auto. destruct H as (ver & E & _). eauto.
Qed.

Definition writes_of (l : list kvv) : list write :=
  map (fun e => (fst e, Some (fst (snd e)), snd (snd e))) l.
Lemma last_write_batch k l :
  last_write k (writes_of l) = option_map (fun e : vv => (Some (fst e), snd e)) (last_entry k l).
Proof.
  induction l as [|[k' [ver val]] r IH]; cbn [writes_of map last_write last_entry fst snd option_map]; auto.
  fold (writes_of r). rewrite IH. destruct (last_entry k r); cbn [option_map]; auto.
  destruct (kcmp k k'); reflexivity.
Qed.
Lemma batch_tracks l s s' k : batch_go s l = Some s' -> tracks k (lookup k s) (writes_of l) (lookup k s').
Proof.
  intros G w0 A. rewrite last_write_batch, (batch_go_spec l _ _ k G).
  destruct (last_entry k l) as [[ver val]|]; cbn [option_map later agrees fst snd]; eauto.
Qed.

Inductive does (s : store) (o : op) : store -> obs -> Prop :=
| does_nothing x : accepted_writes o x = [] -> does s o s x
| does_batch l s' :
    batch_go s l = Some s' ->
    (forall k, tracks k (lookup k s) (accepted_writes o OUnit) (lookup k s')) ->
    does s o s' OUnit.

Lemma does_sorted s o s' x : does s o s' x -> ksorted s -> ksorted s'.
Proof. intros [x0 _|l s1 G _] S; [exact S|]. eapply batch_go_sorted; eauto. Qed.
Lemma does_grows s o s' x : does s o s' x -> grows s s'.
Proof. intros [x0 _|l s1 G _] k; [apply ele_refl|]. apply (batch_go_ele l), G. Qed.
Lemma does_tracks s o s' x k : does s o s' x -> tracks k (lookup k s) (accepted_writes o x) (lookup k s').
Proof. intros [x0 E|l s1 _ T]; [rewrite E; apply tracks_nil|apply T]. Qed.

(** [l] is the batch the write request [o] amounts to *)
Lemma m_batch_does s l o :
  (forall k a b, tracks k a (writes_of l) b -> tracks k a (accepted_writes o OUnit) b) ->
  does s o (fst (m_batch s l)) (obs_of_res (snd (m_batch s l))).
Proof.
  intros H. unfold m_batch. destruct (batch_go s l) as [s'|] eqn:G; cbn [fst snd obs_of_res].
  - apply (does_batch s o l); [exact G|]. intros k. apply H, batch_tracks, G.
  - apply does_nothing. reflexivity.
Qed.
Lemma m_put_does p s k v o :
  accepted_writes o OUnit = [(k, None, v)] ->
  does s o (fst (m_put p s k v)) (obs_of_res (snd (m_put p s k v))).
Proof.
  intros E. unfold m_put. destruct (next_version p (version_of s k)) as [n|].
  - rewrite m_pwv_is_batch. apply m_batch_does. rewrite E. intros k' a b. apply tracks_forget.
  - apply does_nothing. reflexivity.
Qed.
Lemma m_step_does p s o : does s o (fst (m_step p s o)) (snd (m_step p s o)).
Proof.
  destruct o; cbn [m_step]; rewrite ?fst_let, ?snd_let; try (apply does_nothing; reflexivity).
  - apply m_put_does. reflexivity.
  - rewrite m_pwv_is_batch. apply m_batch_does. auto.
  - apply m_batch_does. auto.
  - apply m_put_does. reflexivity.
  - apply m_batch_does. auto.
Qed.

Definition mstep (p : profile) (s : store) (o : op) : store := fst (m_step p s o).
Lemma m_run_keeps p ops s :
  ksorted s -> ksorted (fold_left (mstep p) ops s) /\ grows s (fold_left (mstep p) ops s).
Proof.
  apply run_inv_rel; [apply grows_refl|apply grows_trans|]. intros s0 o S.
  pose proof (m_step_does p s0 o) as D. split; [eapply does_sorted|eapply does_grows]; eauto.
Qed.
Lemma m_run_sorted p ops : ksorted (m_run p ops).
Proof. apply (m_run_keeps p ops []). exact I. Qed.

(** all accepted writes of a history, oldest first *)
Fixpoint m_writes (p : profile) (s : store) (ops : list op) : list write :=
  match ops with
  | [] => []
  | o :: r => let '(s', x) := m_step p s o in accepted_writes o x ++ m_writes p s' r
  end.
Lemma m_run_tracks p k ops : forall s,
  tracks k (lookup k s) (m_writes p s ops) (lookup k (fold_left (mstep p) ops s)).
Proof.
  induction ops as [|o r IH]; intros s; cbn [fold_left m_writes]; [apply tracks_nil|].
  pose proof (does_tracks _ _ _ _ k (m_step_does p s o)) as T. unfold mstep at 2.
  destruct (m_step p s o) as [s' x]. eapply tracks_app; [exact T|apply IH].
Qed.

Lemma m_step_release s o : snd (m_step Release s o) <> OAbort.
Proof.
  assert (B : forall s l, obs_of_res (snd (m_batch s l)) <> OAbort)
    by (intros s0 l; unfold m_batch; destruct (batch_go s0 l); discriminate).
  assert (P : forall k v, obs_of_res (snd (m_put Release s k v)) <> OAbort)
    by (intros k v; unfold m_put; destruct (version_of s k); cbn [next_version add_p]; rewrite m_pwv_is_batch; apply B).
  destruct o; cbn [m_step]; rewrite ?snd_let, ?m_pwv_is_batch; auto; discriminate.
Qed.
Lemma m_trace_release ops : forall s, ~ In OAbort (m_trace Release s ops).
Proof.
  induction ops as [|o r IH]; intros s; cbn [m_trace]; auto.
  pose proof (m_step_release s o) as H. destruct (m_step Release s o) as [s' x]. cbn [snd In] in *.
  intros [E|E]; [congruence|]. eapply IH; eauto.
Qed.

Definition dinv (d : disk) : Prop := cache d = versions_of (table d).

Definition dverdict_of (v : verdict) : dverdict :=
  match v with Write => DWrite | Same => DSame | RefuseLt => DRefuseLt | RefuseEq => DRefuseEq end.
Lemma d_judge_judge t k ver val :
  d_judge (lookup k (versions_of t)) (lookup k t) ver val = dverdict_of (judge (lookup k t) ver val).
Proof.
  rewrite lookup_versions_of. unfold version_of.
  destruct (lookup k t) as [[v0 val0]|]; cbn [option_map fst d_judge judge dverdict_of]; auto.
  destruct (ver <? v0); cbn [dverdict_of]; auto.
  destruct (ver =? v0) eqn:E; cbn [dverdict_of]; auto.
  unfold vv_eqb. cbn [fst snd]. rewrite N.eqb_sym, E. cbn [andb].
  destruct (val_eqb val0 val); reflexivity.
Qed.

(** the healthy states satisfying the invariant are the [lift t]; on them every function of
    the disk store is the memory store's on the table, [lift]ed again, with the cache mutex
    poisoned exactly when the answer is a panic *)
Definition lift (s : store) : disk := mkdisk s (versions_of s) false.
Lemma lift_eta d : dinv d -> vpoison d = false -> d = lift (table d).
Proof. destruct d as [t c b]. unfold dinv, lift. cbn. intros -> ->. reflexivity. Qed.
Definition lift_with {A} (aborts : A -> bool) (x : store * A) : disk * A :=
  (mkdisk (fst x) (versions_of (fst x)) (aborts (snd x)), snd x).
Definition r_aborts (r : res) : bool := match r with RAbort => true | _ => false end.
Definition o_aborts (x : obs) : bool := match x with OAbort => true | _ => false end.
Lemma lift_with_obs (x : store * res) :
  (let '(d, r) := lift_with r_aborts x in (d, obs_of_res r)) =
  lift_with o_aborts (let '(s, r) := x in (s, obs_of_res r)).
Proof. destruct x as [s []]; reflexivity. Qed.

Lemma d_pwv_lift t k ver val : d_pwv (lift t) k ver val = lift_with r_aborts (m_pwv t k ver val).
Proof.
  unfold d_pwv, m_pwv, lift_with, lift. cbn [vpoison cache table]. rewrite d_judge_judge.
  destruct (judge (lookup k t) ver val); cbn [dverdict_of fst snd r_aborts]; auto.
  rewrite versions_of_upsert. reflexivity.
Qed.
Lemma d_put_lift p t k val : d_put p (lift t) k val = lift_with r_aborts (m_put p t k val).
Proof.
  unfold d_put, m_put. cbn [lift vpoison cache]. rewrite lookup_versions_of.
  destruct (next_version p (version_of t k)) as [v|]; [apply d_pwv_lift|reflexivity].
Qed.
Lemma d_batch_go_sim l : forall t bad,
  exists t' b',
    d_batch_go t (versions_of t) bad l = Some (t', versions_of t', b') /\
    (bad = true -> b' = true) /\
    (bad = false -> match batch_go t l with Some s' => b' = false /\ t' = s' | None => b' = true end).
Proof.
  induction l as [|[k [ver val]] r IH]; intros t bad; cbn [d_batch_go batch_go].
  - exists t, bad. repeat split; auto.
  - rewrite d_judge_judge. destruct (judge (lookup k t) ver val); cbn [dverdict_of].
    + rewrite <- (versions_of_upsert k ver val t). apply IH.
    + apply IH.
    + rewrite <- (versions_of_upsert k ver val t).
      destruct (IH (upsert k (ver, val) t) true) as (t' & b' & E & A & _).
      exists t', b'. repeat split; auto.
    + destruct (IH t true) as (t' & b' & E & A & _).
      exists t', b'. repeat split; auto.
Qed.
Lemma d_batch_lift t l : d_batch (lift t) l = lift_with r_aborts (m_batch t l).
Proof.
  unfold d_batch, m_batch. cbn [lift vpoison table cache].
  destruct (d_batch_go_sim l t false) as (t' & b' & E & _ & B). rewrite E.
  specialize (B eq_refl). destruct (batch_go t l) as [s'|].
  - destruct B as [-> ->]. reflexivity.
  - subst b'. reflexivity.
Qed.
Lemma d_step_lift p t o : d_step p (lift t) o = lift_with o_aborts (m_step p t o).
Proof.
  destruct o; cbn [m_step d_step];
    rewrite ?d_put_lift, ?d_pwv_lift, ?d_batch_lift, ?lift_with_obs; try reflexivity.
  cbn [lift vpoison cache]. rewrite lookup_versions_of. reflexivity.
Qed.

(** from ANY state satisfying the invariant (also with a poisoned cache mutex) a request acts
    on the table as a request to the memory store could - possibly as one that panics and
    changes nothing *)
Lemma d_step_does p d o :
  dinv d -> dinv (fst (d_step p d o)) /\ does (table d) o (table (fst (d_step p d o))) (snd (d_step p d o)).
Proof.
  intros Hd. destruct (vpoison d) eqn:P.
  - (* poisoned: reads of the table still work, everything that locks the cache panics *)
    destruct o; cbn [d_step]; unfold d_put, d_pwv, d_batch; rewrite ?P; cbn [fst snd];
      (split; [exact Hd || reflexivity|apply does_nothing; reflexivity]).
  - rewrite (lift_eta d Hd P), d_step_lift. split; [reflexivity|apply m_step_does].
Qed.

Definition dstep (p : profile) (d : disk) (o : op) : disk := fst (d_step p d o).
Lemma d_run_keeps p ops d :
  dinv d /\ ksorted (table d) ->
  (dinv (fold_left (dstep p) ops d) /\ ksorted (table (fold_left (dstep p) ops d))) /\
  grows (table d) (table (fold_left (dstep p) ops d)).
Proof.
  apply (run_inv_rel _ (fun d => dinv d /\ ksorted (table d)) (fun d d' => grows (table d) (table d')));
    [intros a; apply grows_refl|intros a b c; apply grows_trans|].
  intros d0 o [Hd S].
  destruct (d_step_does p d0 o Hd) as [Hd' D]. repeat split; [exact Hd'|eapply does_sorted|eapply does_grows]; eauto.
Qed.
Lemma d_run_inv p ops : dinv (d_run p ops).
Proof. apply (d_run_keeps p ops d_init). split; [reflexivity|exact I]. Qed.
Lemma d_run_sorted p ops : ksorted (table (d_run p ops)).
Proof. apply (d_run_keeps p ops d_init). split; [reflexivity|exact I]. Qed.

(** the disk store answers as the memory store, request by request, up to the
    first panic (none in a release build) *)
Fixpoint cut (l : list obs) : list obs :=
  match l with
  | [] => []
  | OAbort :: _ => [OAbort]
  | x :: r => x :: cut r
  end.

Lemma d_trace_sim p ops : forall t,
  cut (d_trace p (lift t) ops) = cut (m_trace p t ops) /\
  (~ In OAbort (m_trace p t ops) ->
   d_trace p (lift t) ops = m_trace p t ops /\
   fold_left (dstep p) ops (lift t) = lift (fold_left (mstep p) ops t)).
Proof.
  induction ops as [|o r IH]; intros t; cbn [d_trace m_trace fold_left]; [auto|].
  unfold dstep at 2, mstep at 2. rewrite d_step_lift. destruct (m_step p t o) as [s' x].
  cbn [lift_with fst snd]. destruct (IH s') as [IH1 IH2].
  assert (x <> OAbort -> mkdisk s' (versions_of s') (o_aborts x) = lift s') as C
    by (destruct x; intros N; reflexivity || destruct N; reflexivity).
  split.
  - destruct x; cbn [cut]; auto; rewrite C by discriminate; rewrite IH1; reflexivity.
  - cbn [In]. intros N. rewrite C by tauto. destruct IH2 as [E1 E2]; [tauto|]. rewrite E1. auto.
Qed.

Fixpoint d_writes (p : profile) (d : disk) (ops : list op) : list write :=
  match ops with
  | [] => []
  | o :: r => let '(d', x) := d_step p d o in accepted_writes o x ++ d_writes p d' r
  end.
Lemma accepted_writes_abort o : accepted_writes o OAbort = [].
Proof. reflexivity. Qed.
Lemma d_run_tracks p k ops : forall d,
  dinv d -> tracks k (lookup k (table d)) (d_writes p d ops) (lookup k (table (fold_left (dstep p) ops d))).
Proof.
  induction ops as [|o r IH]; intros d Hd; cbn [fold_left d_writes]; [apply tracks_nil|].
  destruct (d_step_does p d o Hd) as [Hd' D]. apply (does_tracks _ _ _ _ k) in D. unfold dstep at 2.
  destruct (d_step p d o) as [d' x]. eapply tracks_app; [exact D|apply IH, Hd'].
Qed.

Lemma d_pwv_refused d k ver val :
  dinv d -> ~ ele (lookup k (table d)) (Some (ver, val)) ->
  fst (d_pwv d k ver val) = d /\ snd (d_pwv d k ver val) <> ROk.
Proof.
  intros Hd N. unfold d_pwv. destruct (vpoison d); [split; [reflexivity|discriminate]|].
  rewrite Hd, d_judge_judge. pose proof (judge_spec (lookup k (table d)) ver val) as J.
  destruct (judge (lookup k (table d)) ver val); cbn [dverdict_of fst snd];
    try (split; [reflexivity|discriminate]); destruct N; [apply ahead_ele, J|rewrite J; apply ele_refl].
Qed.

Lemma d_batch_atomic d l :
  dinv d ->
  let '(d', r) := d_batch d l in
  (r = ROk /\ batch_go (table d) l = Some (table d') /\ cache d' = versions_of (table d')) \/
  (r <> ROk /\ table d' = table d /\ cache d' = cache d).
Proof.
  intros Hd. destruct (vpoison d) eqn:P.
  - unfold d_batch. rewrite P. right. repeat split. discriminate.
  - rewrite (lift_eta d Hd P), d_batch_lift. unfold m_batch. cbn [lift table].
    destruct (batch_go (table d) l) as [s'|] eqn:G; cbn [lift_with fst snd table cache].
    + left. auto.
    + right. repeat split; auto. discriminate.
Qed.

Definition ahead_entry (s : store) (e : kvv) : Prop := ahead_of (lookup (fst e) s) (fst (snd e)).
Definition ahead (s l : store) : Prop := Forall (ahead_entry s) l.
Definition cinv (c : cloud) : Prop :=
  match clog c with None => True | Some l => ksorted l /\ ahead (local c) l end.

(** [enter] computes the next last-writer version with a plain [+ 1]: a release build wraps at
    2^64-1 *)
Definition enter_ok (p : profile) (c : cloud) : Prop :=
  p = Debug \/ match version_of (local c) WRITER with Some v0 => v0 < U64MAX | None => True end.

Lemma staged_ahead c l k e :
  cinv c -> clog c = Some l -> lookup k l = Some e -> ahead_of (lookup k (local c)) (fst e).
Proof.
  unfold cinv. intros Hi L K. rewrite L in Hi. destruct Hi as [S A].
  apply (lookup_In k e l S) in K. exact (proj1 (Forall_forall _ _) A _ K).
Qed.

Lemma last_entry_sorted k (l : store) : ksorted l -> last_entry k l = lookup k l.
Proof.
  induction l as [|[k' e] r IH]; cbn [last_entry lookup ksorted]; auto.
  intros [A S]. rewrite (IH S). destruct (lookup k r) as [x|] eqn:L.
  - apply (lookup_In k x r S) in L. rewrite (kcmp_lt_gt k' k (keys_above_In _ _ _ A L)). reflexivity.
  - destruct (kcmp k k'); reflexivity.
Qed.

Lemma batch_go_ahead (l : store) : forall s : store,
  ksorted l -> ahead s l -> exists s', batch_go s l = Some s'.
Proof.
  induction l as [|[k [ver val]] r IH]; intros s S A; cbn [batch_go]; [eauto|].
  destruct S as [Ab S]. inversion A as [|? ? A1 A2]; subst. rewrite (judge_ahead _ _ _ A1).
  apply IH; auto. apply Forall_forall. intros e He. unfold ahead_entry.
  rewrite lookup_upsert, (kcmp_lt_gt _ _ (keys_above_In _ _ _ Ab He)).
  exact (proj1 (Forall_forall _ _) A2 e He).
Qed.
Lemma m_batch_ahead (s l : store) :
  ksorted l -> ahead s l ->
  exists s', m_batch s l = (s', ROk) /\
             forall k, lookup k s' = match lookup k l with Some e => Some e | None => lookup k s end.
Proof.
  intros S A. destruct (batch_go_ahead l s S A) as [s' G]. exists s'. unfold m_batch. rewrite G.
  split; auto. intros k. rewrite (batch_go_spec l _ _ k G), (last_entry_sorted k l S). reflexivity.
Qed.

Definition visv (c : cloud) (k : key) : option N := option_map fst (c_visible c k).
Definition healthy (c : cloud) : Prop := cpoison c = false /\ clog c <> None.

Definition same (c c' : cloud) : Prop := local c' = local c /\ clog c' = clog c.
Lemma same_refl c : same c c.
Proof. split; reflexivity. Qed.
Lemma c_visible_same c c' k : same c c' -> c_visible c' k = c_visible c k.
Proof. unfold c_visible. intros [-> ->]. reflexivity. Qed.
Lemma c_visible_poison c k : c_visible (c_poison c) k = c_visible c k.
Proof. reflexivity. Qed.

Lemma with_log_healthy {A} c l (dead : A) f :
  cpoison c = false -> clog c = Some l -> with_log c dead f = f l.
Proof. unfold with_log. intros -> ->. reflexivity. Qed.
Lemma with_log_cases {A} c (dead : A) f :
  (exists l, cpoison c = false /\ clog c = Some l /\ with_log c dead f = f l) \/
  (same c (fst (with_log c dead f)) /\ snd (with_log c dead f) = dead).
Proof.
  unfold with_log. destruct (cpoison c); [right; repeat split|].
  destruct (clog c) as [l|]; [left; eauto|right; repeat split].
Qed.
Lemma with_log_read {A} c (dead : A) (g : store -> A) : same c (fst (with_log c dead (fun l => (c, g l)))).
Proof. destruct (with_log_cases c dead (fun l => (c, g l))) as [(l & _ & _ & ->)|[S _]]; [apply same_refl|exact S]. Qed.

Lemma c_get_healthy c k : healthy c -> c_get c k = (c, OVal (c_visible c k)).
Proof.
  intros [P L]. unfold c_get, with_log, c_visible. rewrite P. destruct (clog c); [reflexivity|congruence].
Qed.
Lemma c_getv_healthy c k : healthy c -> c_getv c k = (c, OVer (visv c k)).
Proof.
  intros [P L]. unfold c_getv, with_log, visv, c_visible. rewrite P.
  destruct (clog c) as [l|]; [|congruence]. destruct (lookup k l); reflexivity.
Qed.

Inductive pwv_spec (f : bool) (c : cloud) (k : key) (ver : N) (val : value) : cloud * res -> Prop :=
| pwv_void c' r : same c c' -> r <> ROk -> (r = RErr -> c' = c) -> pwv_spec f c k ver val (c', r)
| pwv_same l :
    cpoison c = false -> clog c = Some l -> (f = true -> staged_lower l k ver = false) ->
    judge (lookup k (local c)) ver val = Same -> pwv_spec f c k ver val (c, ROk)
| pwv_staged l :
    cpoison c = false -> clog c = Some l -> (f = true -> staged_lower l k ver = false) ->
    judge (lookup k (local c)) ver val = Write ->
    pwv_spec f c k ver val (c_setlog c (Some (upsert k (ver, val) l)), ROk).
Lemma c_pwv_gen_spec f c k ver val : pwv_spec f c k ver val (c_pwv_gen f c k ver val).
Proof.
  unfold c_pwv_gen. set (body := fun l : store => _).
  destruct (with_log_cases c RAbort body) as [(l & P & L & ->)|[S E]]; subst body; cbv beta.
  2:{ destruct (with_log c RAbort _) as [c' r]. cbn [fst snd] in *. subst r. apply pwv_void; [exact S|discriminate..]. }
  destruct (f && staged_lower l k ver) eqn:SL; [apply pwv_void; [apply same_refl|discriminate|reflexivity]|].
  assert (f = true -> staged_lower l k ver = false) as SL' by (intros ->; exact SL).
  destruct (judge (lookup k (local c)) ver val) eqn:J.
  - apply (pwv_staged f c k ver val l); assumption.
  - apply (pwv_same f c k ver val l); assumption.
  - apply pwv_void; [apply same_refl|discriminate|reflexivity].
  - apply pwv_void; [apply same_refl|discriminate|reflexivity].
Qed.

Definition keeps (f : bool) (c c' : cloud) : Prop :=
  local c' = local c /\ (cinv c -> cinv c') /\ (f = true -> forall k, vle (visv c k) (visv c' k)).
Lemma same_keeps f c c' : same c c' -> keeps f c c'.
Proof.
  intros S. split; [apply S|]. split.
  - unfold cinv. destruct S as [-> ->]. auto.
  - intros _ k. unfold visv. rewrite (c_visible_same c c' k S). apply vle_refl.
Qed.
Lemma keeps_trans f a b c : keeps f a b -> keeps f b c -> keeps f a c.
Proof.
  intros (L1 & I1 & V1) (L2 & I2 & V2). split; [congruence|]. split; [auto|].
  intros F k. eapply vle_trans; [apply V1|apply V2]; exact F.
Qed.
Lemma c_pwv_keeps f c k ver val : keeps f c (fst (c_pwv_gen f c k ver val)).
Proof.
  destruct (c_pwv_gen_spec f c k ver val) as [c' r S _ _|l P L SL J|l P L SL J]; cbn [fst];
    [apply same_keeps, S|apply same_keeps, same_refl|].
  pose proof (judge_spec (lookup k (local c)) ver val) as A. rewrite J in A.
  split; [reflexivity|]. split.
  - unfold cinv. cbn [c_setlog clog local]. rewrite L. intros [S Ah].
    split; [apply upsert_sorted, S|apply Forall_upsert; assumption].
  - intros F k'. unfold visv, c_visible. cbn [c_setlog clog local]. rewrite L, lookup_upsert.
    destruct (kcmp k' k) eqn:E; try apply vle_refl. apply kcmp_eq_iff in E. subst k'.
    specialize (SL F). unfold staged_lower in SL. destruct (lookup k l) as [[sv sx]|]; cbn [option_map fst vle].
    + apply N.ltb_ge, SL.
    + destruct (lookup k (local c)) as [[v0 x0]|]; cbn [option_map fst vle ahead_of] in *; lia.
Qed.

Lemma c_put_keeps f p c k v : keeps f c (fst (c_put_gen f p c k v)).
Proof.
  unfold c_put_gen. destruct (next_version p (version_of (local c) k)); [apply c_pwv_keeps|apply same_keeps, same_refl].
Qed.
Lemma c_batch_keeps f l : forall c, keeps f c (fst (c_batch_gen f c l)).
Proof.
  induction l as [|[k [ver val]] r IH]; intros c; cbn [c_batch_gen]; [apply same_keeps, same_refl|].
  pose proof (c_pwv_keeps f c k ver val) as K. destruct (c_pwv_gen f c k ver val) as [c1 []]; cbn [fst] in *;
    [eapply keeps_trans; [exact K|apply IH]|exact K..].
Qed.

(** what one request does to the store: it stages; or it opens a transaction with the
    last-writer record; or it drops that record from an otherwise empty log; or (commit,
    put_batch_unlogged) it hands a batch to the local store and closes the transaction *)
Inductive c_effect (f : bool) (p : profile) (sid : value) (c : cloud) : op -> cloud -> Prop :=
| eff_keeps o c' : keeps f c c' -> c_effect f p sid c o c'
| eff_enter nv :
    clog c = None -> next_version p (version_of (local c) WRITER) = Val nv ->
    c_effect f p sid c Enter (c_setlog c (Some [(WRITER, (nv, sid))]))
| eff_prepare e : clog c = Some [(WRITER, e)] -> c_effect f p sid c Prepare (c_setlog c (Some []))
| eff_flush o l :
    (o = Commit /\ clog c = Some l) \/ (o = Unlogged l /\ clog c = None) ->
    c_effect f p sid c o (mkcloud (fst (m_batch (local c) l)) None false).

Lemma c_step_effect f p sid c o : c_effect f p sid c o (fst (c_step_gen f p sid c o)).
Proof.
  assert (Same : forall o c', same c c' -> c_effect f p sid c o c') by (intros; apply eff_keeps, same_keeps; assumption).
  destruct o; cbn [c_step_gen]; rewrite ?fst_let; try (apply Same; split; reflexivity).
  - apply eff_keeps, c_put_keeps.
  - apply eff_keeps, c_pwv_keeps.
  - apply eff_keeps, c_batch_keeps.
  - apply eff_keeps, c_put_keeps.
  - apply Same, with_log_read.
  - apply Same, with_log_read.
  - unfold c_enter. destruct (next_version p (version_of (local c) WRITER)) eqn:NV; [|apply Same, same_refl].
    destruct (cpoison c), (clog c) eqn:L; try (apply Same; split; reflexivity).
    apply eff_enter; assumption.
  - unfold c_prepare. set (body := fun l : store => _).
    destruct (with_log_cases c OAbort body) as [(l & _ & L & ->)|[S _]]; subst body; [|apply Same, S].
    destruct l as [|[k e] [|x r]]; try (apply Same, same_refl).
    destruct (kcmp k WRITER) eqn:C; try (apply Same; split; reflexivity).
    apply kcmp_eq_iff in C. subst k. exact (eff_prepare f p sid c e L).
  - unfold c_commit. destruct (cpoison c), (clog c) as [l|] eqn:L; try (apply Same; split; reflexivity).
    rewrite fst_let. apply eff_flush. auto.
  - unfold c_unlogged. destruct (cpoison c), (clog c) eqn:L; try (apply Same; split; reflexivity).
    rewrite fst_let. apply eff_flush. auto.
Qed.

Lemma next_version_ahead p (cur : option vv) nv :
  next_version p (option_map fst cur) = Val nv ->
  p = Debug \/ match option_map fst cur with Some v0 => v0 < U64MAX | None => True end ->
  ahead_of cur nv.
Proof.
  destruct cur as [[v0 x0]|]; cbn [option_map fst next_version ahead_of]; [|auto].
  unfold add_p. destruct p.
  - destruct (v0 + 1 <=? U64MAX); intros E; inversion E. lia.
  - intros E [Q|Q]; [discriminate|]. inversion E. unfold add_wrap, two64, U64MAX in *.
    rewrite N.mod_small; lia.
Qed.

Lemma c_step_inv p sid c o :
  cinv c -> (o = Enter -> enter_ok p c) -> cinv (fst (c_step p sid c o)).
Proof.
  intros Hi EO. unfold c_step. destruct (c_step_effect true p sid c o) as [o c' S|nv L NV|e L|o l H].
  - apply S, Hi.
  - split; [split; constructor|]. constructor; [|constructor].
    apply (next_version_ahead p _ nv NV), EO. reflexivity.
  - split; constructor.
  - exact I.
Qed.

Definition local_grows (c c' : cloud) : Prop := grows (local c) (local c').
Lemma c_step_local_grows p sid c o : local_grows c (fst (c_step p sid c o)).
Proof.
  intros k. unfold c_step. destruct (c_step_effect true p sid c o) as [o c' S|nv L NV|e L|o l H]; try apply ele_refl.
  - rewrite (proj1 S). apply ele_refl.
  - apply m_batch_grows.
Qed.

Lemma c_commit_ok c l :
  cinv c -> cpoison c = false -> clog c = Some l ->
  exists s', c_commit c = (mkcloud s' None false, ROk) /\
             forall k, lookup k s' = match lookup k l with Some e => Some e | None => lookup k (local c) end.
Proof.
  intros Hi P L. unfold cinv in Hi. rewrite L in Hi. destruct Hi as [S A].
  destruct (m_batch_ahead (local c) l S A) as (s' & E & Sp). exists s'.
  unfold c_commit. rewrite P, L, E. auto.
Qed.

(** what a transaction sees of a key never goes down in version: [enter] stages the
    last-writer record only, [prepare] drops nothing else, [commit] moves the log into the
    local store, and outside a transaction the view is the local store *)
Lemma c_step_vis_mono p sid c o k :
  cinv c -> k <> WRITER -> vle (visv c k) (visv (fst (c_step p sid c o)) k).
Proof.
  intros Hi NW. apply kcmp_neq in NW. unfold c_step.
  destruct (c_step_effect true p sid c o) as [o c' S|nv L NV|e L|o l [[-> L]|[-> L]]];
    unfold visv, c_visible; cbn [c_setlog clog local]; rewrite ?L; cbn [lookup].
  - apply S. reflexivity.
  - destruct (kcmp k WRITER); [destruct NW; reflexivity|apply vle_refl..].
  - destruct (kcmp k WRITER); [destruct NW; reflexivity|apply vle_refl..].
  - unfold cinv in Hi. rewrite L in Hi. destruct (m_batch_ahead (local c) l) as (s' & -> & ->); try apply Hi.
    apply vle_refl.
  - apply ele_vle, m_batch_grows.
Qed.

Lemma c_pwv_ok c k ver val c' :
  cinv c -> c_pwv c k ver val = (c', ROk) ->
  healthy c' /\
  forall k', c_visible c' k' = match kcmp k' k with Eq => Some (ver, val) | _ => c_visible c k' end.
Proof.
  intros Hi E. pose proof (c_pwv_gen_spec true c k ver val) as Sp. unfold c_pwv in E. rewrite E in Sp.
  inversion Sp as [c0 r _ N _|l P L SL J|l P L SL J]; subst c'; [contradiction|..];
    (split; [split; [exact P|cbn [c_setlog clog]; rewrite ?L; discriminate]|]); intros k'.
  - destruct (kcmp k' k) eqn:C; auto. apply kcmp_eq_iff in C. subst k'.
    pose proof (judge_spec (lookup k (local c)) ver val) as Q. rewrite J in Q.
    unfold c_visible. rewrite L. destruct (lookup k l) as [[sv sx]|] eqn:K; [exfalso|exact Q].
    (* a staged entry would be ahead of the local one, hence above [ver] *)
    pose proof (staged_ahead c l k _ Hi L K) as A. rewrite Q in A. cbn [ahead_of fst] in A.
    specialize (SL eq_refl). unfold staged_lower in SL. rewrite K in SL. apply N.ltb_ge in SL. lia.
  - unfold c_visible. cbn [c_setlog clog local]. rewrite L, lookup_upsert. destruct (kcmp k' k); reflexivity.
Qed.
Lemma c_put_ok p c k val c' :
  cinv c -> c_put p c k val = (c', ROk) -> healthy c' /\ exists ver, c_visible c' k = Some (ver, val).
Proof.
  intros Hi. unfold c_put, c_put_gen. destruct (next_version p (version_of (local c) k)) as [v|]; [|discriminate].
  intros E. apply c_pwv_ok in E; auto. destruct E as [H V]. split; [exact H|]. exists v.
  rewrite V, kcmp_refl. reflexivity.
Qed.
Lemma c_batch_ok l : forall c c',
  cinv c -> c_batch c l = (c', ROk) ->
  (healthy c \/ l <> [] -> healthy c') /\
  forall k, c_visible c' k = match last_entry k l with Some e => Some e | None => c_visible c k end.
Proof.
  induction l as [|[k0 [ver val]] r IH]; intros c c' Hi; cbn [c_batch c_batch_gen last_entry].
  - intros E. inversion E. subst. split; [intros [H|H]; [exact H|destruct H; reflexivity]|reflexivity].
  - pose proof (c_pwv_keeps true c k0 ver val) as (_ & Hi1 & _).
    destruct (c_pwv_gen true c k0 ver val) as [c1 []] eqn:E1; try discriminate. intros E.
    destruct (c_pwv_ok c k0 ver val c1 Hi E1) as [H1 V1]. destruct (IH c1 c' (Hi1 Hi) E) as [H2 V2].
    split; [auto|]. intros k. rewrite V2, V1. destruct (last_entry k r); [|destruct (kcmp k k0)]; reflexivity.
Qed.

Definition c_from (p : profile) (sid : value) (c : cloud) (ops : list op) : cloud :=
  fold_left (fun c o => fst (c_step p sid c o)) ops c.

(** every [enter] of the history happens where the last-writer version can be incremented
    (always so in a debug build, where the increment traps instead of wrapping) *)
Definition enters_ok (p : profile) (sid : value) (c : cloud) (ops : list op) : Prop :=
  forall pre post, ops = pre ++ Enter :: post -> enter_ok p (c_from p sid c pre).
Lemma enters_ok_debug sid c ops : enters_ok Debug sid c ops.
Proof. intros pre post _. left. reflexivity. Qed.

Definition cstep (p : profile) (sid : value) (c : cloud) (o : op) : cloud := fst (c_step p sid c o).
Lemma c_from_snoc p sid c ops o : c_from p sid c (ops ++ [o]) = cstep p sid (c_from p sid c ops) o.
Proof. unfold c_from. rewrite fold_left_app. reflexivity. Qed.
Lemma enters_ok_prefix p sid c a b : enters_ok p sid c (a ++ b) -> enters_ok p sid c a.
Proof. intros H pre post E. apply (H pre (post ++ b)). rewrite E, <- app_assoc. reflexivity. Qed.
(** [enters_ok] speaks of the prefixes of the history, so the inductions go from its end *)
Lemma c_from_inv p sid c ops : cinv c -> enters_ok p sid c ops -> cinv (c_from p sid c ops).
Proof.
  intros Hi. induction ops as [|o r IH] using rev_ind; intros EO; [exact Hi|].
  rewrite c_from_snoc. apply c_step_inv; [apply IH, (enters_ok_prefix _ _ _ _ _ EO)|].
  intros ->. apply (EO r []). reflexivity.
Qed.
Lemma c_from_vis_mono p sid c pre post k :
  cinv c -> enters_ok p sid c (pre ++ post) -> k <> WRITER ->
  vle (visv (c_from p sid c pre) k) (visv (c_from p sid c (pre ++ post)) k).
Proof.
  intros Hi EO NW. induction post as [|o r IH] using rev_ind; [rewrite app_nil_r; apply vle_refl|].
  rewrite app_assoc in *. pose proof (enters_ok_prefix _ _ _ _ _ EO) as EO'. rewrite c_from_snoc.
  eapply vle_trans; [apply IH, EO'|]. apply c_step_vis_mono; [apply c_from_inv; assumption|exact NW].
Qed.
Lemma c_run_inv p sid ops : enters_ok p sid c_init ops -> cinv (c_run p sid ops).
Proof. apply c_from_inv. exact I. Qed.
Lemma local_grows_run {Op} (step : cloud -> Op -> cloud) :
  (forall c o, local_grows c (step c o)) -> forall ops c, local_grows c (fold_left step ops c).
Proof.
  intros H ops c. apply (run_inv_rel step (fun _ => True) local_grows); [intros a; apply grows_refl| | |exact I].
  - intros a b d. apply grows_trans.
  - intros c0 o _. split; [exact I|apply H].
Qed.
Lemma c_run_local_grows p sid ops c : local_grows c (fold_left (cstep p sid) ops c).
Proof. apply local_grows_run, c_step_local_grows. Qed.
(** the same over histories with restarts (open transactions are lost by a restart, the
    local store is not) *)
Lemma cr_run_local_grows p sid ops c : local_grows c (fold_left (fun c o => fst (cr_step p sid c o)) ops c).
Proof.
  apply local_grows_run. intros c0 o. destruct o; try apply c_step_local_grows. intros k. apply ele_refl.
Qed.

Definition is_write (o : op) : bool :=
  match o with Put _ _ | PutV _ _ _ | Batch _ | Delete _ | Unlogged _ => true | _ => false end.
(** the report that stands after request [o] was answered [x]: the answer of the last
    [prepare], void as soon as a write request, an [enter] or a [commit] follows it *)
Definition next_report (rep : option (list kvv)) (o : op) (x : obs) : option (list kvv) :=
  match o with
  | Prepare => match x with OList m => Some m | _ => None end
  | Enter | Commit => None
  | _ => if is_write o then None else rep
  end.
Definition rep_ok (c : cloud) (rep : option (list kvv)) : Prop :=
  forall m, rep = Some m -> clog c = Some m /\ cpoison c = false.

Lemma c_step_rep p sid c o rep :
  rep_ok c rep ->
  rep_ok (fst (c_step p sid c o)) (next_report rep o (snd (c_step p sid c o))).
Proof.
  intros R. destruct o; cbn [next_report is_write]; try (intros m Q; discriminate).
  - (* a read of a healthy store leaves it as it is *)
    intros m Q. destruct (R m Q) as [L P]. cbn [c_step c_step_gen].
    unfold c_get. rewrite (with_log_healthy c m) by assumption. auto.
  - intros m Q. destruct (R m Q) as [L P]. cbn [c_step c_step_gen].
    unfold c_getv. rewrite (with_log_healthy c m) by assumption. auto.
  - exact R.
  - exact R.
  - cbn [c_step c_step_gen]. unfold c_prepare. set (body := fun l : store => _).
    destruct (with_log_cases c OAbort body) as [(l & P & L & ->)|[_ ->]]; subst body; [|intros m Q; discriminate].
    destruct l as [|[k e] [|x r]]; [|destruct (kcmp k WRITER)|]; cbn [fst snd];
      intros m Q; inversion Q; subst; auto.
Qed.

Definition c_rstep (p : profile) (sid : value) (cr : cloud * option (list kvv)) (o : op) :=
  let '(c', x) := c_step p sid (fst cr) o in (c', next_report (snd cr) o x).
Definition c_run_rep (p : profile) (sid : value) (ops : list op) : cloud * option (list kvv) :=
  fold_left (c_rstep p sid) ops (c_init, None).
Lemma c_run_rep_ok p sid ops :
  fst (c_run_rep p sid ops) = c_run p sid ops /\ rep_ok (c_run p sid ops) (snd (c_run_rep p sid ops)).
Proof.
  induction ops as [|o r [F R]] using rev_ind; [split; [reflexivity|intros m Q; discriminate]|].
  unfold c_run_rep, c_run in *. rewrite !fold_left_app. cbn [fold_left]. unfold c_rstep at 1 3. rewrite F.
  pose proof (c_step_rep p sid _ o _ R) as H. destruct (c_step p sid _ o). auto.
Qed.

Lemma prefix_not_below p : forall k, is_prefix p k = true -> kcmp k p <> Lt.
Proof.
  induction p as [|x p IH]; intros [|y k]; cbn [is_prefix kcmp]; try discriminate.
  rewrite andb_true_iff, N.eqb_eq. intros [-> H]. rewrite N.compare_refl. apply IH. exact H.
Qed.
Lemma past_prefix p : forall h k,
  kcmp h p <> Lt -> is_prefix p h = false -> kcmp h k = Lt -> is_prefix p k = false.
Proof.
  induction p as [|x p IH]; intros [|y h] [|z k]; cbn [is_prefix kcmp]; try congruence; try discriminate.
  destruct (N.compare_spec y x) as [E|E|E]; destruct (N.compare_spec y z) as [F|F|F]; try congruence.
  - subst. rewrite N.eqb_refl. cbn [andb]. apply IH.
  - subst. intros _ _ _. destruct (N.eqb_spec x z); [lia|reflexivity].
  - subst. intros _ _ _. destruct (N.eqb_spec x z); [lia|reflexivity].
  - intros _ _ _. destruct (N.eqb_spec x z); [lia|reflexivity].
Qed.

Section Range.
  Context {V : Type}.
  Implicit Types s : list (key * V).
  Definition prefixed (p : key) (e : key * V) : bool := is_prefix p (fst e).

  Lemma filter_drop_below p s : filter (prefixed p) (drop_below p s) = filter (prefixed p) s.
  Proof.
    induction s as [|[k v] r IH]; cbn [drop_below filter]; [reflexivity|].
    unfold kltb. destruct (kcmp k p) eqn:E; try reflexivity.
    rewrite IH. unfold prefixed at 2. cbn [fst]. destruct (is_prefix p k) eqn:P; [|reflexivity].
    destruct (prefix_not_below p k P E).
  Qed.
  Definition starts_at (p : key) s : Prop := match s with [] => True | (k, _) :: _ => kcmp k p <> Lt end.
  Lemma drop_below_sorted p s : ksorted s -> ksorted (drop_below p s) /\ starts_at p (drop_below p s).
  Proof.
    induction s as [|[k v] r IH]; cbn [drop_below]; [split; exact I|]. intros S. unfold kltb.
    destruct (kcmp k p) eqn:E; [|apply IH, S|]; (split; [exact S|]); cbn [starts_at]; congruence.
  Qed.
  Lemma filter_none (f : key * V -> bool) s : Forall (fun e => f e = false) s -> filter f s = [].
  Proof. induction 1 as [|e r E _ IH]; cbn [filter]; [reflexivity|]. rewrite E. exact IH. Qed.
  (** in a sorted list that starts at or above the prefix, nothing after the first
      non-prefixed key is prefixed *)
  Lemma take_prefixed_filter p s : ksorted s -> starts_at p s -> take_prefixed p s = filter (prefixed p) s.
  Proof.
    induction s as [|[k v] r IH]; cbn [take_prefixed filter ksorted starts_at]; [reflexivity|].
    intros [A S] H. unfold prefixed at 1. cbn [fst]. destruct (is_prefix p k) eqn:P.
    - f_equal. apply IH; [exact S|]. destruct A as [|[k' v'] r' A _]; [exact I|].
      intros L. apply H. exact (klt_trans _ _ _ A L).
    - symmetry. apply filter_none. revert A. apply Forall_impl. intros e. apply past_prefix; assumption.
  Qed.
  Lemma range_prefix_filter p s : ksorted s -> range_prefix p s = filter (prefixed p) s.
  Proof.
    intros S. unfold range_prefix. rewrite take_prefixed_filter by apply drop_below_sorted, S.
    apply filter_drop_below.
  Qed.
  Lemma filter_sorted (f : key * V -> bool) s : ksorted s -> ksorted (filter f s).
  Proof.
    induction s as [|[k v] r IH]; cbn [filter ksorted]; [auto|]. intros [A S].
    destruct (f (k, v)); cbn [ksorted]; auto. split; auto. apply Forall_forall. intros e He.
    apply filter_In in He. exact (keys_above_In _ _ _ A (proj1 He)).
  Qed.

  Theorem range_prefix_spec p k v s :
    ksorted s ->
    (In (k, v) (range_prefix p s) <-> is_prefix p k = true /\ lookup k s = Some v).
  Proof. intros S. rewrite (range_prefix_filter p s S), filter_In, (lookup_In k v s S). unfold prefixed. cbn [fst]. tauto. Qed.
  Theorem range_prefix_sorted p s : ksorted s -> ksorted (range_prefix p s).
  Proof. intros S. rewrite (range_prefix_filter p s S). apply filter_sorted, S. Qed.
End Range.

Lemma c_unlogged_ok c l c' :
  c_unlogged c l = (c', ROk) -> exists s', c' = mkcloud s' None false /\ batch_go (local c) l = Some s'.
Proof.
  unfold c_unlogged, m_batch. destruct (cpoison c); [discriminate|]. destruct (clog c); [discriminate|].
  destruct (batch_go (local c) l) as [s'|]; intros E; inversion E. eauto.
Qed.
Lemma replay_refused (s : store) l s1 k n val l2 v x :
  batch_go s l = Some s1 -> last_entry k l = Some (n, val) -> In (k, (v, x)) l2 -> v < n ->
  m_batch s1 l2 = (s1, RErr).
Proof.
  intros G LE I2 Lt. apply (m_batch_entry_refused s1 l2 k (v, x) I2).
  rewrite (batch_go_spec l _ _ k G), LE. apply not_ele_lower, Lt.
Qed.

Lemma batch_go_repeat_refused (s : store) (l1 : list kvv) k n x1 (l2 : list kvv) v x l3 :
  v < n \/ (v = n /\ x <> x1) ->
  batch_go s (l1 ++ (k, (n, x1)) :: l2 ++ (k, (v, x)) :: l3) = None.
Proof.
  intros H. destruct (batch_go s _) as [s'|] eqn:G; [exfalso|reflexivity].
  rewrite batch_go_app in G. destruct (batch_go s l1) as [s1|]; [|discriminate].
  apply batch_go_cons in G. destruct G as (_ & s2 & G & _ & L).
  assert (A : ele (lookup k s2) (Some (v, x)))
    by (eapply batch_go_entry; [exact G|apply in_or_app; right; left; reflexivity]).
  rewrite L, kcmp_refl in A. cbn [ele] in A. destruct H as [|[? ?]], A as [|[? ?]]; subst; lia || congruence.
Qed.
