(** Proofs about [Model.Velocity]: the sliding-window bound over every history with
    restarts (C12). *)
From VLS Require Import Base.U64 Model.Velocity.
From Coq Require Import ZifyBool ZifyN ZifyNat.

Lemma div_sub_aligned (I s now : N) :
  I <> 0 -> s mod I = 0 -> s <= now -> (now - s) / I = now / I - s / I.
Proof.
  intros HI Hs Hle.
  assert (Hs' : s = s / I * I).
  { pose proof (N.div_mod s I HI) as Hdm. rewrite Hs in Hdm. nia. }
  assert (Hn : now = (now - s) + s / I * I) by lia.
  assert (Hq : now / I = (now - s) / I + s / I).
  { rewrite <- (N.div_add (now - s) (s / I) I HI). rewrite <- Hn. reflexivity. }
  dlia.
Qed.

Lemma floor_aligned (I now : N) :
  I <> 0 -> (now - now mod I) mod I = 0 /\ (now - now mod I) / I = now / I.
Proof.
  intros HI.
  assert (H : now - now mod I = now / I * I).
  { pose proof (N.div_mod now I HI). pose proof (N.mod_le now I HI). nia. }
  rewrite H. split; [apply N.mod_mul | apply N.div_mul]; exact HI.
Qed.

Lemma epoch_close (I t now n : N) :
  I <> 0 -> now < t + n * I -> now / I <= t / I + n.
Proof.
  intros HI H.
  rewrite <- (N.div_add t n I HI).
  apply N.div_le_mono; [exact HI | lia].
Qed.

Lemma sum_N_repeat0 n : sum_N (repeat 0 n) = 0.
Proof. induction n as [|n IH]; cbn [repeat sum_N]; lia. Qed.

Lemma sum_N_firstn_le k l : sum_N (firstn k l) <= sum_N l.
Proof.
  revert k; induction l as [|x l IH]; intros [|k]; cbn [firstn sum_N]; try lia.
  specialize (IH k). lia.
Qed.

Lemma sum_N_firstn_repeat0 k n : sum_N (firstn k (repeat 0 n)) = 0.
Proof. pose proof (sum_N_firstn_le k (repeat 0 n)) as H. rewrite sum_N_repeat0 in H. lia. Qed.

Lemma shift_length n bs : (n <= length bs)%nat -> length (shift_buckets n bs) = length bs.
Proof.
  intros H. unfold shift_buckets. rewrite app_length, repeat_length, firstn_length. lia.
Qed.

Lemma shift_firstn_sum n bs k :
  (n <= length bs)%nat -> (k <= length bs)%nat ->
  sum_N (firstn k (shift_buckets n bs)) =
  if (k <=? n)%nat then 0 else sum_N (firstn (k - n)%nat bs).
Proof.
  intros Hn Hk. unfold shift_buckets.
  rewrite firstn_app, sum_N_app, repeat_length, sum_N_firstn_repeat0, firstn_firstn.
  destruct (Nat.leb_spec k n) as [Hle|Hgt].
  - replace (k - n)%nat with 0%nat by lia. cbn [Nat.min firstn sum_N]. lia.
  - replace (Nat.min (k - n) (length bs - n)) with (k - n)%nat by lia. lia.
Qed.

Lemma shift_sum_le n bs : sum_N (shift_buckets n bs) <= sum_N bs.
Proof. unfold shift_buckets. rewrite sum_N_app, sum_N_repeat0. apply sum_N_firstn_le. Qed.

Lemma wsum_app p l1 l2 : wsum p (l1 ++ l2) = wsum p l1 + wsum p l2.
Proof.
  induction l1 as [|[t a] l1 IH]; cbn [wsum app]; [lia|]. rewrite IH. lia.
Qed.

Lemma wsum_mono (p q : N -> bool) log :
  Forall (fun e => p (fst e) = true -> q (fst e) = true) log ->
  wsum p log <= wsum q log.
Proof.
  induction 1 as [|[t a] l Hx _ IH]; cbn [wsum fst] in *; [lia|].
  destruct (p t) eqn:Hp.
  - rewrite (Hx eq_refl). lia.
  - destruct (q t); lia.
Qed.

Lemma wsum_ext (p q : N -> bool) log :
  Forall (fun e => p (fst e) = q (fst e)) log -> wsum p log = wsum q log.
Proof.
  induction 1 as [|[t a] l Hx _ IH]; cbn [wsum fst] in *; [lia|].
  rewrite Hx, IH. reflexivity.
Qed.

Lemma wsum_none (p : N -> bool) log :
  Forall (fun e => p (fst e) = false) log -> wsum p log = 0.
Proof.
  induction 1 as [|[t a] l Hx _ IH]; cbn [wsum fst] in *; [lia|].
  rewrite Hx, IH. lia.
Qed.

Lemma nshift_le c now : (nshift_of c now <= length (buckets c))%nat.
Proof. unfold nshift_of. lia. Qed.

Lemma insert_shape c now amt :
  let c' := fst (insert c now amt) in
  interval c' = interval c /\ limit c' = limit c /\ length (buckets c') = length (buckets c) /\ start c' <= now.
Proof.
  pose proof (shift_length _ _ (nshift_le c now)) as HL.
  unfold insert. destruct (_ <? _); cbn [fst advance interval limit buckets start];
    (repeat split; [|apply N.le_sub_l]); [|destruct (shift_buckets _ _)]; exact HL.
Qed.

Lemma spec_matches_insert c it lim now amt :
  spec_matches c it lim = true -> spec_matches (fst (insert c now amt)) it lim = true.
Proof.
  unfold spec_matches. destruct (spec_triple it lim) as [[l i] n].
  destruct (insert_shape c now amt) as (-> & -> & -> & _). exact (fun H => H).
Qed.

Lemma of_spec_matches it lim : spec_matches (of_spec it lim) it lim = true.
Proof. unfold spec_matches, of_spec. destruct it; cbn; rewrite ?N.eqb_refl; reflexivity. Qed.

Lemma of_spec_start it lim : start (of_spec it lim) = 0.
Proof. unfold of_spec. destruct (spec_triple it lim) as [[l i] n]. reflexivity. Qed.

Lemma spec_matches_update c it lim : spec_matches (update_spec c it lim) it lim = true.
Proof. unfold update_spec. destruct (spec_matches c it lim) eqn:E; [exact E | apply of_spec_matches]. Qed.

Lemma restore_matching c it lim : spec_matches c it lim = true -> restore it lim c = c.
Proof. intros H. unfold restore, update_spec. rewrite H. reflexivity. Qed.

Lemma spec_matches_facts c it lim : spec_matches c it lim = true ->
  limit c = fst (fst (spec_triple it lim)) /\ 0 < interval c /\ buckets c <> [] /\ (length (buckets c) <= 24)%nat.
Proof.
  unfold spec_matches. destruct (spec_triple it lim) as [[l i] n] eqn:E. cbn [fst].
  rewrite !andb_true_iff, !N.eqb_eq, Nat.eqb_eq. intros [[-> ->] Hn].
  (* every spec has a positive interval and between 1 and 24 buckets *)
  assert (0 < i /\ (0 < n <= 24)%nat) as [Hi Hb]
    by (destruct it; cbn [spec_triple] in E; injection E as _ <- <-; lia).
  repeat split; [exact Hi | intros Eb; rewrite Eb in Hn; cbn [length] in Hn; lia | lia].
Qed.

Definition matches (it : itype) (lim : N) (s : nodevc) : Prop :=
  spec_matches (mem s) it lim = true /\ spec_matches (disk s) it lim = true.

Lemma vinit_matches it lim : matches it lim (vinit it lim).
Proof. split; apply of_spec_matches. Qed.

Lemma vstep_matches it lim s o : matches it lim s -> matches it lim (fst (vstep it lim s o)).
Proof.
  intros [Hm Hd]. destruct o as [now amt| |]; cbn [vstep].
  - pose proof (spec_matches_insert (mem s) it lim now amt Hm) as Hi.
    destruct (insert (mem s) now amt) as [c ok]. destruct ok; split; assumption.
  - split; exact Hm.
  - split; [apply spec_matches_update | exact Hd].
Qed.

Lemma vrun_from_state (P : nodevc -> Prop) it lim :
  (forall s o, P s -> P (fst (vstep it lim s o))) ->
  forall ops s log, P s -> P (fst (vrun_from it lim s log ops)).
Proof.
  intros Hs. induction ops as [|o r IH]; intros s log H; cbn [vrun_from]; [exact H|].
  specialize (Hs s o H). destruct (vstep it lim s o) as [s1 res]. apply IH, Hs.
Qed.

Definition step_time (o : vop) (t : N) : N := match o with Approve now _ => now | _ => t end.
Definition step_log (o : vop) (res : option bool) (log : list (N * N)) : list (N * N) :=
  match o, res with Approve now amt, Some true => log ++ [(now, amt)] | _, _ => log end.

Lemma vrun_from_inv it lim (P : nodevc -> list (N * N) -> N -> Prop) :
  (forall s log t o, P s log t -> t <= step_time o t ->
     P (fst (vstep it lim s o)) (step_log o (snd (vstep it lim s o)) log) (step_time o t)) ->
  forall ops1 ops2 s log t, P s log t -> nondecreasing t (op_times (ops1 ++ ops2)) = true ->
  exists t', P (fst (vrun_from it lim s log ops1)) (snd (vrun_from it lim s log ops1)) t' /\
             nondecreasing t' (op_times ops2) = true.
Proof.
  intros Hs. induction ops1 as [|o r IH]; intros ops2 s log t H Hnd; cbn [vrun_from app];
    [exists t; split; assumption|].
  assert (Ht : t <= step_time o t /\ nondecreasing (step_time o t) (op_times (r ++ ops2)) = true).
  { destruct o; cbn [app op_times nondecreasing step_time] in *; [|split; [lia | exact Hnd] ..].
    apply andb_prop in Hnd. rewrite N.leb_le in Hnd. exact Hnd. }
  specialize (Hs s log t o H (proj1 Ht)). destruct (vstep it lim s o) as [s1 res].
  exact (IH ops2 _ _ _ Hs (proj2 Ht)).
Qed.

Section Control.
Variables (I lim : N) (nb : nat).
Hypothesis HI : I <> 0.
Hypothesis Hnb : (0 < nb)%nat.
Hypothesis Hlim : lim < U64MAX.

(** [BInv c log]: the control [c] accounts exactly for the approvals in [log] (none of them later
    than its current epoch) in the epochs it still tracks: the [k] newest buckets hold what was
    approved in the [k] newest epochs *)
Record BInv (c : vc) (log : list (N * N)) : Prop := {
  bi_interval : interval c = I;
  bi_len : length (buckets c) = nb;
  bi_limit : limit c = lim;
  bi_aligned : start c mod I = 0;
  bi_past : Forall (fun e => fst e / I <= start c / I) log;
  bi_sums : forall k, (k <= nb)%nat ->
      sum_N (firstn k (buckets c)) =
      wsum (fun t => start c / I <? t / I + N.of_nat k) log;
  bi_bound : sum_N (buckets c) <= lim
}.

Lemma BInv_total c log : BInv c log ->
  sum_N (buckets c) = wsum (fun t => start c / I <? t / I + N.of_nat nb) log.
Proof.
  intros B. rewrite <- (bi_sums c log B nb (le_n nb)), <- (bi_len c log B), firstn_all. reflexivity.
Qed.

Lemma BInv_velocity c log : BInv c log -> velocity c = sum_N (buckets c).
Proof.
  intros B. unfold velocity. apply sat_sum_exact.
  pose proof (bi_bound c log B). lia.
Qed.

Lemma BInv_fresh : BInv (fresh lim I nb) [].
Proof.
  constructor; cbn [fresh interval buckets limit start wsum]; try reflexivity.
  - apply repeat_length.
  - constructor.
  - intros k _. apply sum_N_firstn_repeat0.
  - rewrite sum_N_repeat0. lia.
Qed.

Lemma BInv_advance c log now :
  BInv c log -> start c <= now -> Forall (fun e => fst e <= now) log ->
  BInv (advance c now) log.
Proof.
  intros B Hge Hpast.
  destruct (floor_aligned I now HI) as [Hal Hep].
  pose proof (bi_interval _ _ B) as Hi.
  pose proof (bi_len _ _ B) as Hl.
  pose proof (div_sub_aligned I (start c) now HI (bi_aligned _ _ B) Hge) as Hd.
  pose proof (N.div_le_mono (start c) now I HI Hge) as Hmono.
  assert (Hn : nshift_of c now = N.to_nat (N.min (N.of_nat nb) (now / I - start c / I))).
  { unfold nshift_of. rewrite Hi, Hl, Hd. reflexivity. }
  constructor; unfold advance; cbn [interval buckets limit start]; rewrite ?Hi.
  - reflexivity.
  - rewrite shift_length by apply nshift_le. exact Hl.
  - apply (bi_limit _ _ B).
  - exact Hal.
  - rewrite Hep. eapply Forall_impl; [|exact Hpast].
    intros e He. apply N.div_le_mono; assumption.
  - intros k Hk. rewrite Hep.
    rewrite shift_firstn_sum; [| apply nshift_le | rewrite Hl; exact Hk].
    rewrite Hn.
    destruct (Nat.leb_spec k (N.to_nat (N.min (N.of_nat nb) (now / I - start c / I)))) as [Hle|Hgt].
    + symmetry. apply wsum_none.
      eapply Forall_impl; [|exact (bi_past _ _ B)].
      intros e He. cbn beta in *. dlia.
    + rewrite (bi_sums _ _ B) by (eapply Nat.le_trans; [apply Nat.le_sub_l | exact Hk]).
      apply wsum_ext.
      eapply Forall_impl; [|exact (bi_past _ _ B)].
      intros e He. cbn beta in *. dlia.
  - eapply N.le_trans; [apply shift_sum_le | apply (bi_bound _ _ B)].
Qed.

Lemma advance_epoch c now : interval c = I -> start (advance c now) / I = now / I.
Proof.
  intros Hi. unfold advance; cbn [start]. rewrite Hi.
  apply (floor_aligned I now HI).
Qed.

(** [advance_epoch] under a premise it does not need; nothing in the development uses it *)
Lemma advance_start c now : BInv c [] \/ True -> interval c = I -> start (advance c now) / I = now / I.
Proof. intros _. apply advance_epoch. Qed.

Lemma BInv_add c log now amt :
  BInv c log -> start c / I = now / I ->
  sum_N (buckets c) + amt <= lim ->
  BInv (mkvc (start c) (interval c) (add_bucket0 (buckets c) amt) (limit c))
       (log ++ [(now, amt)]).
Proof.
  intros B Hep Hsum.
  pose proof (bi_len _ _ B) as Hl.
  destruct (buckets c) as [|b0 bs] eqn:Hb; [cbn [length] in Hl; lia|].
  cbn [sum_N] in Hsum.
  assert (Hsat : sat_add b0 amt = b0 + amt) by (apply sat_add_exact; lia).
  constructor; cbn [interval buckets limit start add_bucket0].
  - apply (bi_interval _ _ B).
  - exact Hl.
  - apply (bi_limit _ _ B).
  - apply (bi_aligned _ _ B).
  - apply Forall_app; split; [apply (bi_past _ _ B)|].
    constructor; [cbn [fst]; rewrite Hep; apply N.le_refl | constructor].
  - intros k Hk. rewrite wsum_app. cbn [wsum].
    pose proof (bi_sums _ _ B k Hk) as Hs. rewrite Hb in Hs.
    destruct k as [|k].
    + cbn [firstn sum_N] in *. rewrite <- Hs.
      replace (start c / I <? now / I + N.of_nat 0) with false by dlia. lia.
    + cbn [firstn sum_N] in *. rewrite Hsat.
      replace (start c / I <? now / I + N.of_nat (S k)) with true by dlia. lia.
  - cbn [sum_N]. rewrite Hsat. lia.
Qed.

Definition WInv (log : list (N * N)) : Prop :=
  forall t0 len, len <= (N.of_nat nb - 1) * I -> wsum (in_window t0 len) log <= lim.

Record NInv (s : nodevc) (log : list (N * N)) (last : N) : Prop := {
  ni_mem : BInv (mem s) log;
  ni_disk : BInv (disk s) log;
  ni_mem_start : start (mem s) <= last;
  ni_disk_start : start (disk s) <= last;
  ni_past : Forall (fun e => fst e <= last) log;
  ni_win : WInv log
}.

Lemma insert_spec c log now amt :
  BInv c log -> start c <= now -> Forall (fun e => fst e <= now) log -> WInv log ->
  let '(c1, ok) := insert c now amt in
  let log1 := if ok then log ++ [(now, amt)] else log in
  BInv c1 log1 /\ start c1 <= now /\ WInv log1.
Proof.
  intros B Hs Hpast Hw.
  pose proof (BInv_advance c log now B Hs Hpast) as B1.
  pose proof (N.le_sub_l now (now mod interval c) : start (advance c now) <= now) as Hst.
  unfold insert.
  destruct (limit (advance c now) <? sat_add (velocity (advance c now)) amt) eqn:Hchk.
  - split; [exact B1 | split; [exact Hst | exact Hw]].
  - rewrite (BInv_velocity _ _ B1), (bi_limit _ _ B1) in Hchk.
    assert (Hsum : sum_N (buckets (advance c now)) + amt <= lim).
    { apply sat_add_small; [exact Hlim | lia]. }
    pose proof (advance_epoch c now (bi_interval _ _ B)) as Hep.
    split; [apply BInv_add; assumption|].
    split; [exact Hst|].
    intros t0 len Hlen. rewrite wsum_app. cbn [wsum].
    destruct (in_window t0 len now) eqn:Hin.
    + (* the new approval lies in the window: everything else in the window is still tracked *)
      rewrite (BInv_total _ _ B1), Hep in Hsum.
      assert (Hle : wsum (in_window t0 len) log <=
                    wsum (fun t => now / I <? t / I + N.of_nat nb) log).
      { apply wsum_mono. eapply Forall_impl; [|exact Hpast].
        intros [t a] Ht Hwin. cbn [fst] in *. unfold in_window in *.
        assert (Hc : now < t + (N.of_nat nb - 1) * I) by lia.
        pose proof (epoch_close I t now (N.of_nat nb - 1) HI Hc). dlia. }
      lia.
    + specialize (Hw t0 len Hlen). lia.
Qed.

End Control.

Section Node.
Variables (it : itype) (lim0 : N).

Definition lim_of := fst (fst (spec_triple it lim0)).
Definition ivl_of := snd (fst (spec_triple it lim0)).
Definition nb_of := snd (spec_triple it lim0).

Hypothesis Hlimited : lim_of < U64MAX.

Lemma ivl_nonzero : ivl_of <> 0.
Proof. unfold ivl_of. destruct it; cbn; lia. Qed.
Lemma nb_pos : (0 < nb_of)%nat.
Proof. unfold nb_of. destruct it; cbn; lia. Qed.

Lemma of_spec_fresh : of_spec it lim0 = fresh lim_of ivl_of nb_of.
Proof. unfold of_spec, lim_of, ivl_of, nb_of. destruct (spec_triple it lim0) as [[l i] n]. reflexivity. Qed.

Lemma NInv_init : NInv ivl_of lim_of nb_of (vinit it lim0) [] 0.
Proof.
  unfold vinit. rewrite of_spec_fresh.
  pose proof (BInv_fresh ivl_of lim_of nb_of ivl_nonzero nb_pos Hlimited) as Bf.
  constructor; cbn [mem disk fresh start]; try exact Bf; try lia; [constructor|].
  intros t0 len _. cbn [wsum]. lia.
Qed.

Lemma NInv_step s log t o :
  NInv ivl_of lim_of nb_of s log t -> matches it lim0 s -> t <= step_time o t ->
  NInv ivl_of lim_of nb_of (fst (vstep it lim0 s o)) (step_log o (snd (vstep it lim0 s o)) log) (step_time o t).
Proof.
  intros [Bm Bd Hms Hds Hpast Hw] [_ Md] Ht. destruct o as [now amt| |]; cbn [vstep step_time step_log] in *.
  - assert (Hpast' : Forall (fun e => fst e <= now) log)
      by (eapply Forall_impl; [|exact Hpast]; intros e He; cbn beta in *; lia).
    pose proof (insert_spec ivl_of lim_of nb_of ivl_nonzero nb_pos Hlimited (mem s) log now amt
                  Bm (N.le_trans _ _ _ Hms Ht) Hpast' Hw) as Hins.
    destruct (insert (mem s) now amt) as [c ok]. destruct Hins as [Bc [Hcs Hwc]].
    destruct ok; constructor; cbn [fst snd mem disk]; try assumption; try lia.
    apply Forall_app; split; [exact Hpast' | constructor; [cbn [fst]; lia | constructor]].
  - constructor; assumption.
  - rewrite (restore_matching _ _ _ Md). constructor; assumption.
Qed.

Theorem window_bound ops :
  nondecreasing 0 (op_times ops) = true ->
  forall t0 len, len <= (N.of_nat nb_of - 1) * ivl_of ->
  wsum (in_window t0 len) (snd (vrun it lim0 ops)) <= lim_of.
Proof.
  intros Hnd.
  destruct (vrun_from_inv it lim0 (fun s log t => NInv ivl_of lim_of nb_of s log t /\ matches it lim0 s)) with
    (ops1 := ops) (ops2 := @nil vop) (s := vinit it lim0) (log := @nil (N * N)) (t := 0) as (t' & [Inv _] & _).
  - intros s log t o [Inv M] Ht. split; [apply NInv_step; assumption | apply vstep_matches, M].
  - split; [exact NInv_init | apply vinit_matches].
  - rewrite app_nil_r. exact Hnd.
  - apply (ni_win _ _ _ _ _ _ Inv).
Qed.

End Node.

Lemma restart_is_identity (it : itype) (lim0 : N) (ops : list vop) :
  restore it lim0 (disk (fst (vrun it lim0 ops))) = disk (fst (vrun it lim0 ops)).
Proof.
  apply restore_matching, (vrun_from_state (matches it lim0) it lim0 (vstep_matches it lim0)), vinit_matches.
Qed.

Lemma restart_keeps_counted (it : itype) (lim0 : N) (ops : list vop) :
  fst (fst (spec_triple it lim0)) < U64MAX ->
  nondecreasing 0 (op_times ops) = true ->
  restore it lim0 (disk (fst (vrun it lim0 ops))) = disk (fst (vrun it lim0 ops)).
Proof. intros _ _. apply restart_is_identity. Qed.
