(** Proofs about Model/CommitmentPolicy.v: what an [Ok] of the validators implies, for every
    filter (per tag) and for the non-permissive one; filter semantics; the fee-rate estimator. *)
From VLS Require Import Base.U64 Model.CommitmentPolicy Proofs.RustFacts.
From Coq Require Import ZifyBool ZifyN ZifyNat.

Lemma andthen_ok a b : andthen a b = Ok <-> a = Ok /\ b = Ok.
Proof.
  destruct a; cbn [andthen]; split; intros H; try discriminate; try (destruct H; discriminate); tauto.
Qed.

Lemma perr_ok_iff warn t : perr warn t = Ok <-> warn t = true.
Proof. unfold perr. destruct (warn t); split; (reflexivity || discriminate). Qed.

Lemma check_ok_iff warn c t : check warn c t = Ok <-> (warn t = false -> c = false).
Proof. unfold check, perr. destruct c, (warn t); intuition congruence. Qed.

Lemma filter_default t : filter_warn [] t = false.
Proof. reflexivity. Qed.

Lemma filter_warn_explicit rules t :
  filter_warn rules t = true ->
  exists pre r post, rules = pre ++ r :: post /\ rule_matches r t = true /\ r_warn r = true /\
                     Forall (fun q => rule_matches q t = false) pre.
Proof.
  induction rules as [|r rs IH]; cbn [filter_warn]; [discriminate|].
  destruct (rule_matches r t) eqn:Hm.
  - intros Hw. exists [], r, rs. repeat split; auto.
  - intros H. destruct (IH H) as (pre & r' & post & -> & Hm' & Hw' & Hpre).
    exists (r :: pre), r', post. repeat split; auto.
Qed.

Lemma filter_no_warn_rules rules t :
  Forall (fun r => r_warn r = false) rules -> filter_warn rules t = false.
Proof.
  induction 1 as [|r rs Hr _ IH]; cbn [filter_warn]; [reflexivity|].
  destruct (rule_matches r t); assumption.
Qed.

(** the first matching rule decides *)
Lemma filter_first_match pre r post t :
  Forall (fun q => rule_matches q t = false) pre -> rule_matches r t = true ->
  filter_warn (pre ++ r :: post) t = r_warn r.
Proof.
  induction 1 as [|q pre Hq _ IH]; cbn [app filter_warn]; intros Hm.
  - rewrite Hm. reflexivity.
  - rewrite Hq. apply IH, Hm.
Qed.

Lemma prefix_empty t : String.prefix "" t = true.
Proof. destruct t; reflexivity. Qed.

Lemma permissive_warns_everything t : warn_of permissive_rules t = true.
Proof.
  unfold warn_of, permissive_rules. cbn [filter_warn rule_matches r_prefix r_tag r_warn].
  rewrite prefix_empty. reflexivity.
Qed.

Lemma estimate_le_u32 fee w : estimate_feerate_per_kw fee w <= U32MAX.
Proof. unfold estimate_feerate_per_kw. lia. Qed.

Lemma div_ge_iff a b q : b <> 0 -> (q <= a / b <-> q * b <= a).
Proof.
  intros Hb. split; intros H.
  - pose proof (N.mul_div_le a b Hb). nia.
  - apply N.div_le_lower_bound; [assumption | lia].
Qed.

Lemma div_le_iff a b q : b <> 0 -> (a / b <= q <-> a < (q + 1) * b).
Proof.
  intros Hb. split; intros H.
  - pose proof (N.mod_upper_bound a b Hb). pose proof (N.div_mod a b Hb). nia.
  - assert (a / b < q + 1); [|lia]. apply N.div_lt_upper_bound; [assumption | lia].
Qed.

(** the two comparisons of [validate_fee] as a window for the fee; a maximum of u32::MAX means
    "no maximum" (the saturated value is accepted), hence [hi < U32MAX] *)
Lemma estimate_window fee w lo hi : w <> 0 -> hi < U32MAX ->
  lo <= estimate_feerate_per_kw fee w <= hi ->
  lo * w <= fee * 1000 + 999 /\ fee * 1000 + 999 < (hi + 1) * w.
Proof.
  intros Hw Hh H. unfold estimate_feerate_per_kw in H.
  rewrite <- (div_ge_iff _ w lo Hw), <- (div_le_iff _ w hi Hw). lia.
Qed.

Lemma estimate_exact fee w : w <> 0 -> fee * 1000 + 999 < two32 * w ->
  estimate_feerate_per_kw fee w = (fee * 1000 + 999) / w.
Proof.
  intros Hw H. unfold estimate_feerate_per_kw.
  assert ((fee * 1000 + 999) / w <= U32MAX); [|lia].
  apply div_le_iff; [assumption|]. unfold U32MAX, two32 in *. lia.
Qed.

Lemma bolt3_fee_le_iff rate w fee : bolt3_fee rate w <= fee <-> rate * w <= fee * 1000 + 999.
Proof. unfold bolt3_fee. rewrite div_le_iff by discriminate. lia. Qed.

Lemma bolt3_fee_gt_iff rate w fee : fee < bolt3_fee rate w <-> fee * 1000 + 999 < rate * w.
Proof. unfold bolt3_fee. rewrite <- N.le_succ_l, div_ge_iff by discriminate. lia. Qed.

Lemma bolt3_window_iff lo hi w fee :
  (bolt3_fee lo w <= fee /\ fee < bolt3_fee hi w) <->
  (lo * w <= fee * 1000 + 999 /\ fee * 1000 + 999 < hi * w).
Proof. rewrite bolt3_fee_le_iff, bolt3_fee_gt_iff. reflexivity. Qed.

Lemma add_p32_val prof a b v : add_p32 prof a b = Val v ->
  (prof = Debug \/ a + b <= U32MAX) -> v = a + b.
Proof.
  unfold add_p32. destruct prof.
  - destruct (a + b <=? U32MAX); intros H _; inversion H; reflexivity.
  - intros H [Hd | Hfit]; [discriminate|]. injection H as <-.
    apply N.mod_small. unfold U32MAX, two32 in *. lia.
Qed.

Lemma validate_expiry_ok prof warn pol cs e :
  validate_expiry prof warn pol e (current_height cs) = Ok ->
  warn T_cltv_range = false -> heights_fit prof pol cs -> expiry_ok pol cs e.
Proof.
  unfold validate_expiry, expiry_ok. rewrite andthen_ok, check_ok_iff. intros [H1 H2] Hw Hfit.
  specialize (H1 Hw). split; [lia|]. intros Hu. rewrite Hu in H2.
  destruct (add_p32 prof (current_height cs) (min_delay pol)) as [lo|] eqn:Elo; [|discriminate].
  destruct (add_p32 prof (current_height cs) (max_delay pol)) as [hi|] eqn:Ehi;
    rewrite andthen_ok in H2; [|destruct H2; discriminate].
  rewrite !check_ok_iff in H2. destruct H2 as [H2 H3]. specialize (H2 Hw). specialize (H3 Hw).
  unfold heights_fit in Hfit.
  apply add_p32_val in Elo; [|tauto]. apply add_p32_val in Ehi; [|tauto]. lia.
Qed.

Lemma add_checked_some a b c : add_checked a b = Some c -> c = a + b /\ a + b <= U64MAX.
Proof.
  unfold add_checked. destruct (a + b <=? U64MAX) eqn:E; intros H; inversion H. lia.
Qed.

Lemma htlc_loop_ok prof warn pol cs limit hs : forall acc acc',
  htlc_loop prof warn pol (current_height cs) limit hs acc = (Ok, acc') ->
  acc' = acc + msum hs /\
  (warn T_outputs_trimmed = false -> Forall (fun h => limit <= fst h) hs) /\
  (warn T_cltv_range = false -> heights_fit prof pol cs ->
   Forall (fun h => expiry_ok pol cs (snd h)) hs).
Proof.
  induction hs as [|[v e] r IH]; intros acc acc' H; cbn [htlc_loop] in H.
  - inversion H. unfold msum. cbn [map sum_N]. split; [lia|]. split; intros; constructor.
  - destruct (validate_expiry prof warn pol e (current_height cs)) eqn:Ee;
      try (inversion H; fail).
    destruct (add_checked acc v) as [a1|] eqn:Ea; [|inversion H].
    apply add_checked_some in Ea. destruct Ea as [-> Hle].
    destruct (check warn (v <? limit) T_outputs_trimmed) eqn:Ec; try (inversion H; fail).
    apply IH in H. destruct H as (Hs & Hd & Hx). rewrite check_ok_iff in Ec.
    unfold msum in *. cbn [map sum_N fst]. split; [lia|]. split.
    + intros Hw. specialize (Ec Hw). constructor; [cbn [fst]; lia|auto].
    + intros Hw Hfit. constructor; [|auto]. cbn [snd].
      eapply validate_expiry_ok; eassumption.
Qed.

Lemma sub_checked_some a b c : sub_checked a b = Some c -> b <= a /\ c = a - b.
Proof.
  unfold sub_checked. destruct (b <=? a) eqn:E; intros H; inversion H. lia.
Qed.

Lemma validate_fee_ok warn pol cv so w :
  validate_fee est_new warn pol cv so w = Ok <->
  so <= cv /\ w <> 0 /\
  (warn T_fee_range = false ->
   min_feerate pol <= estimate_feerate_per_kw (cv - so) w <= max_feerate pol).
Proof.
  unfold validate_fee, est_new, sub_checked.
  destruct (N.leb_spec so cv); [|intuition (discriminate || lia)].
  destruct (N.eqb_spec w 0); [intuition (discriminate || lia)|].
  rewrite andthen_ok, !check_ok_iff. intuition lia.
Qed.

Lemma main_output_check warn v :
  check warn ((0 <? v) && (v <? MIN_CHAN_DUST_LIMIT)) T_outputs_trimmed = Ok ->
  warn T_outputs_trimmed = false -> main_output_ok v.
Proof.
  rewrite check_ok_iff. intros H Hw. specialize (H Hw). unfold main_output_ok, MIN_CHAN_DUST_LIMIT in *. lia.
Qed.

Lemma n_htlcs_zero i : n_htlcs i = 0 -> offered i = [] /\ received i = [].
Proof.
  unfold n_htlcs. destruct (offered i), (received i); cbn [length]; intros H; try lia.
  split; reflexivity.
Qed.

Lemma validate_commitment_inv est prof warn pol s cs n i :
  validate_commitment est prof warn pol s cs n i = Ok ->
  check warn ((0 <? to_broadcaster i) && (to_broadcaster i <? MIN_CHAN_DUST_LIMIT))
        T_outputs_trimmed = Ok /\
  check warn ((0 <? to_countersigner i) && (to_countersigner i <? MIN_CHAN_DUST_LIMIT))
        T_outputs_trimmed = Ok /\
  check warn (max_htlcs pol <? n_htlcs i) T_htlc_count = Ok /\
  exists acc1 acc2 s1 so,
    htlc_loop prof warn pol (current_height cs) (offered_limit s i) (offered i) 0 = (Ok, acc1) /\
    htlc_loop prof warn pol (current_height cs) (received_limit s i) (received i) acc1 = (Ok, acc2) /\
    check warn (max_htlc_value pol <? acc2) T_inflight = Ok /\
    add_checked (to_broadcaster i) (to_countersigner i) = Some s1 /\
    add_checked s1 acc2 = Some so /\
    validate_fee est warn pol (channel_value s) so (weight_of s i) = Ok /\
    initial_rules warn s n i = Ok.
Proof.
  unfold validate_commitment, weight_of. rewrite !andthen_ok. intros (Hb & Hc & Hn & H).
  destruct (htlc_loop _ _ _ _ _ (offered i) 0) as [[] acc1] eqn:L1; try discriminate.
  destruct (htlc_loop _ _ _ _ _ (received i) acc1) as [[] acc2] eqn:L2; try discriminate.
  rewrite andthen_ok in H. destruct H as [Hi H].
  destruct (add_checked (to_broadcaster i) (to_countersigner i)) as [s1|] eqn:A1; [|discriminate].
  destruct (add_checked s1 acc2) as [so|] eqn:A2; [|discriminate].
  rewrite andthen_ok in H. destruct H as [Hf Hini].
  repeat (split; [assumption|]). exists acc1, acc2, s1, so. auto 10.
Qed.

(** Everything an [Ok] of validate_commitment_tx (with the repaired estimator) implies, for an
    arbitrary filter: each bound holds unless its own tag has been downgraded; the overflow
    and underflow refusals cannot be downgraded at all. *)
Theorem accept_facts prof warn pol s cs n i :
  validate_commitment est_new prof warn pol s cs n i = Ok ->
  total_out i <= channel_value s /\
  (warn T_outputs_trimmed = false -> dust_bound s i) /\
  (warn T_htlc_count = false -> count_bound pol i) /\
  (warn T_inflight = false -> inflight_bound pol i) /\
  (warn T_cltv_range = false -> heights_fit prof pol cs -> expiry_bound pol cs i) /\
  (warn T_fee_range = false -> max_feerate pol < U32MAX -> fee_bound pol s i) /\
  (warn T_first_no_htlcs = false -> n = 0 -> offered i = [] /\ received i = []) /\
  (warn T_initial_funding_value = false -> n = 0 -> is_outbound s = true ->
   cp_value i <= push_value_msat s / 1000).
Proof.
  intros H. apply validate_commitment_inv in H.
  destruct H as (Hb & Hc & Hn & acc1 & acc2 & s1 & so & L1 & L2 & Hi & A1 & A2 & Hf & Hini).
  apply htlc_loop_ok in L1. destruct L1 as (-> & Hd1 & Hx1).
  apply htlc_loop_ok in L2. destruct L2 as (-> & Hd2 & Hx2).
  apply add_checked_some in A1. destruct A1 as [-> _].
  apply add_checked_some in A2. destruct A2 as [-> _].
  apply validate_fee_ok in Hf.
  replace (_ + _ + (0 + _ + _)) with (total_out i) in Hf by (unfold total_out; lia).
  destruct Hf as (Hle & Hw0 & Hfee). rewrite check_ok_iff in Hn, Hi.
  split; [assumption|].
  split. { intros Hw. repeat split; [eapply main_output_check; eassumption..|apply Hd1, Hw|apply Hd2, Hw]. }
  split. { intros Hw. specialize (Hn Hw). clear - Hn. unfold count_bound. lia. }
  split. { intros Hw. specialize (Hi Hw). clear - Hi. unfold inflight_bound. lia. }
  split. { intros Hw Hfit. apply Forall_app. split; auto. }
  split. { intros Hw Hm. split; [exact Hle|]. apply bolt3_window_iff, estimate_window; auto. }
  unfold initial_rules in Hini. split; intros Hw ->; rewrite N.eqb_refl, andthen_ok, check_ok_iff in Hini.
  - destruct Hini as [H0 _]. specialize (H0 Hw). apply n_htlcs_zero. clear - H0. lia.
  - intros Ho. destruct Hini as [_ H0]. rewrite Ho, check_ok_iff in H0. specialize (H0 Hw). clear - H0. lia.
Qed.

Theorem accept_implies_bounds prof warn pol s cs n i :
  (forall t, warn t = false) ->
  max_feerate pol < U32MAX ->
  heights_fit prof pol cs ->
  validate_commitment est_new prof warn pol s cs n i = Ok ->
  Bounds pol s cs n i.
Proof.
  intros Hw Hm Hfit H. apply accept_facts in H.
  destruct H as (_ & Hd & Hc & Hi & Hx & Hf & H0 & Hp).
  unfold Bounds.
  split; [apply Hf; auto|]. split; [apply Hd; auto|]. split; [apply Hc; auto|].
  split; [apply Hi; auto|]. split; [apply Hx; auto|].
  intros ->. destruct (H0 (Hw _) eq_refl) as [Eo Er].
  split; [exact Eo|]. split; [exact Er|]. intros Ho. apply Hp; auto.
Qed.

Lemma ensure_buried_ok warn n cs :
  ensure_funding_buried_and_unspent warn n cs = Ok <->
  (0 < n -> (warn T_active_utxo_temp = false -> 1 <= funding_depth cs) /\
            (warn T_active_utxo = false -> closing_depth cs = 0)).
Proof.
  unfold ensure_funding_buried_and_unspent, MIN_FUNDING_DEPTH.
  destruct (N.ltb_spec 0 n); [rewrite andthen_ok, !check_ok_iff|]; intuition lia.
Qed.

Theorem onchain_counterparty_buried est prof warn pol e s cs n i :
  onchain_counterparty_commitment est prof warn pol e s cs n i = Ok -> 0 < n ->
  (warn T_active_utxo_temp = false -> 1 <= funding_depth cs) /\
  (warn T_active_utxo = false -> closing_depth cs = 0).
Proof.
  unfold onchain_counterparty_commitment. rewrite andthen_ok. intros [H _]. apply ensure_buried_ok, H.
Qed.

(** a holder commitment that is new (not a re-validation of the current one) *)
Theorem onchain_holder_buried est prof warn pol e s cs n i :
  onchain_holder_commitment est prof warn pol e s cs n i = Ok -> 0 < n ->
  next_holder_commit_num e <= n ->
  (warn T_active_utxo_temp = false -> 1 <= funding_depth cs) /\
  (warn T_active_utxo = false -> closing_depth cs = 0).
Proof.
  unfold onchain_holder_commitment. rewrite andthen_ok. intros [H _] Hn Hnew.
  destruct (N.leb_spec (next_holder_commit_num e) n); [|lia]. apply (proj1 (ensure_buried_ok _ _ _) H Hn).
Qed.

Lemma entry_accept en est prof warn pol e s cs n i :
  validate_entry en est prof warn pol e s cs n i = Ok ->
  validate_commitment est prof warn pol s cs n i = Ok.
Proof.
  destruct en; cbn [validate_entry];
    unfold onchain_counterparty_commitment, onchain_holder_commitment,
      validate_counterparty_commitment, validate_holder_commitment;
    rewrite ?andthen_ok; tauto.
Qed.

Lemma validate_delay_ok warn pol t d :
  validate_delay warn pol t d = Ok <-> (warn t = false -> min_delay pol <= d <= max_delay pol).
Proof. unfold validate_delay. rewrite andthen_ok, !check_ok_iff. lia. Qed.

(** what validate_setup_channel accepts, exactly: a shutdown script that is neither ours nor
    allowlisted (2) passes only when its tag is downgraded, a wallet error (3) never *)
Theorem setup_facts warn pol s :
  validate_setup_channel warn pol s = Ok <->
  (warn T_safe_type = false -> safe_type (commitment_type s) = true) /\
  (warn T_delay_holder = false -> min_delay pol <= cp_delay s <= max_delay pol) /\
  (warn T_delay_counterparty = false -> min_delay pol <= holder_delay s <= max_delay pol) /\
  (shutdown s = 0 \/ shutdown s = 1 \/ shutdown s = 2 /\ warn T_mutual_destination = true).
Proof.
  unfold validate_setup_channel. rewrite !andthen_ok, check_ok_iff, !validate_delay_ok, negb_false_iff.
  do 3 apply and_iff_compat_l.
  destruct (N.eqb_spec (shutdown s) 0); [intuition|].
  destruct (N.eqb_spec (shutdown s) 1); [intuition|].
  destruct (N.eqb_spec (shutdown s) 2); [rewrite perr_ok_iff; intuition|].
  intuition discriminate.
Qed.

Theorem sign_counterparty_facts est prof warn pol onchain e s cs n i :
  sign_counterparty est prof warn pol onchain e s cs n i = Ok ->
  (warn T_funding_max = false -> channel_value s <= max_channel_size pol) /\
  validate_commitment est prof warn pol s cs n i = Ok /\
  (onchain = true -> 0 < n ->
   (warn T_active_utxo_temp = false -> 1 <= funding_depth cs) /\
   (warn T_active_utxo = false -> closing_depth cs = 0)).
Proof.
  unfold sign_counterparty, validate_channel_value. rewrite andthen_ok, check_ok_iff. intros [Hv H].
  split; [intros Hw; specialize (Hv Hw); lia|].
  destruct onchain.
  - split; [exact (entry_accept OnchainCp _ _ _ _ _ _ _ _ _ H)|].
    intros _ Hn. eapply onchain_counterparty_buried; eassumption.
  - split; [exact (entry_accept SimpleCp _ _ _ _ _ _ _ _ _ H)|discriminate].
Qed.

Definition slot_ok (warn : tag -> bool) (pol : policy) (st : slot) : Prop :=
  match st with Stub => True | Ready s => validate_setup_channel warn pol s = Ok end.

Lemma lstep_slot_ok est prof warn pol oc st o :
  slot_ok warn pol st -> slot_ok warn pol (fst (lstep est prof warn pol oc st o)).
Proof.
  intros H. destruct o as [s | e cs n i | e cs n i]; cbn [lstep].
  - destruct st as [|s']; cbn [fst]; [|exact H].
    destruct (setup_pre prof s =? 0); [|exact I].
    destruct (validate_setup_channel warn pol s) eqn:E; cbn [fst slot_ok]; auto.
  - destruct st; cbn [fst]; exact H.
  - destruct st; cbn [fst]; exact H.
Qed.

Lemma lrun_slot_ok est prof warn pol oc ops : forall st,
  slot_ok warn pol st -> slot_ok warn pol (lrun est prof warn pol oc st ops).
Proof.
  induction ops as [|o r IH]; intros st H; cbn [lrun fold_left]; [exact H|].
  apply IH. apply lstep_slot_ok. exact H.
Qed.

Lemma code3_ok r : code3 r = 0 -> r = Ok.
Proof. destruct r; cbn [code3]; intros H; [reflexivity | discriminate | discriminate]. Qed.

(** after any history of requests on a channel id, an accepted commitment request met a ready
    channel whose setup validate_setup_channel accepted, and passed validate_commitment_tx with
    that setup *)
Theorem accepted_commitment_on_validated_setup est prof warn pol oc pre o :
  let st := lrun est prof warn pol oc Stub pre in
  snd (lstep est prof warn pol oc st o) = 0 ->
  match o with
  | LSetup _ => True
  | LSignCp e cs n i | LValidateHolder e cs n i =>
      exists s, st = Ready s /\ validate_setup_channel warn pol s = Ok /\
                validate_commitment est prof warn pol s cs n i = Ok
  end.
Proof.
  intros st H.
  assert (Hok : slot_ok warn pol st) by (apply lrun_slot_ok; exact I).
  destruct o as [s | e cs n i | e cs n i]; [exact I | |]; cbn [lstep] in H;
    destruct st as [|s]; cbn [snd] in H; try discriminate; exists s;
    (split; [reflexivity|]); (split; [exact Hok|]); apply code3_ok in H.
  - apply sign_counterparty_facts in H. tauto.
  - eapply entry_accept. eassumption.
Qed.
