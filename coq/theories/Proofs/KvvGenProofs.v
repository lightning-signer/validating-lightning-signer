(** The translated MemoryKVVStore and CloudKVVStore functions (Gen/KvvGen.v) are the model's (Model/Kvv.v). *)
From Coq Require Import String.
From Coq Require Import List.
From VLS Require Import Base.Rust Gen.KvvGen.
From VLS Require Import Model.Kvv Proofs.KvvProofs.
Import ListNotations.
Local Open Scope N_scope.

Lemma bytes_cmp_kcmp a : forall b, bytes_cmp a b = kcmp a b.
Proof. induction a as [|x a IH]; intros [|y b]; cbn [bytes_cmp kcmp]; try reflexivity; rewrite IH; reflexivity. Qed.

Lemma bytes_eqb_val_eqb a : forall b, bytes_eqb a b = val_eqb a b.
Proof.
  unfold val_eqb. induction a as [|x a IH]; intros [|y b]; cbn [bytes_eqb list_eqb]; try reflexivity; rewrite IH; reflexivity.
Qed.

Lemma bmap_get_lookup {V} (m : list (key * V)) k : bmap_get m k = lookup k m.
Proof.
  induction m as [|[k' v] r IH]; cbn [bmap_get lookup]; [reflexivity|].
  rewrite bytes_cmp_kcmp, IH. reflexivity.
Qed.

Lemma bmap_insert_upsert {V} (m : list (key * V)) k v : bmap_insert m k v = upsert k v m.
Proof.
  induction m as [|[k' v'] r IH]; cbn [bmap_insert upsert]; [reflexivity|].
  rewrite bytes_cmp_kcmp, IH. reflexivity.
Qed.

(** a model answer as the generated functions return it: the store the call leaves, the refusal, the panic *)
Definition of_mres (x : store * res) : trap (result MemoryKVVStore) :=
  match snd x with
  | ROk => Val (OkR (mk_MemoryKVVStore (fst x)))
  | RErr => Val (ErrR "VersionMismatch"%string)
  | RAbort => Trap
  end.

Theorem gen_get_version_is_model prof s k :
  gen_MemoryKVVStore_get_version prof (mk_MemoryKVVStore s) k = Val (OkR (version_of s k)).
Proof. unfold gen_MemoryKVVStore_get_version, version_of. cbn [MemoryKVVStore_data]. rewrite bmap_get_lookup. reflexivity. Qed.

(** the source's test of a new entry against the current one is the model's verdict *)
Lemma judge_is_source {X} (cur : option (N * list N)) ver val (E S W : X) :
  match cur with
  | Some (v0, val0) =>
      if ver <? v0 then E else if ver =? v0 then (if negb (bytes_eqb val0 val) then E else S) else W
  | None => W
  end = match judge cur ver val with Write => W | Same => S | RefuseLt | RefuseEq => E end.
Proof.
  destruct cur as [[v0 val0]|]; cbn [judge]; [|reflexivity]. destruct (ver <? v0); [reflexivity|].
  destruct (ver =? v0); [|reflexivity]. rewrite bytes_eqb_val_eqb. destruct (val_eqb val0 val); reflexivity.
Qed.

Theorem gen_pwv_is_model prof s k ver val :
  gen_MemoryKVVStore_put_with_version prof (mk_MemoryKVVStore s) k ver val = of_mres (m_pwv s k ver val).
Proof.
  unfold gen_MemoryKVVStore_put_with_version, m_pwv, of_mres. cbv beta zeta. cbn [MemoryKVVStore_data].
  rewrite judge_is_source, bmap_get_lookup, bmap_insert_upsert. unfold vv, Kvv.value, key.
  destruct (judge (lookup k s) ver val); reflexivity.
Qed.

(** a refusal (and a panic) leaves the model's store as it was: the ErrR of the generated function loses nothing *)
Lemma m_pwv_refusal_keeps s k ver val : snd (m_pwv s k ver val) <> ROk -> fst (m_pwv s k ver val) = s.
Proof. unfold m_pwv. destruct (judge (lookup k s) ver val); cbn [fst snd]; congruence. Qed.

Theorem gen_put_is_model prof s k val :
  gen_MemoryKVVStore_put prof (mk_MemoryKVVStore s) k val = of_mres (m_put prof s k val).
Proof.
  unfold gen_MemoryKVVStore_put, m_put, next_version. rewrite gen_get_version_is_model. cbn [bindR].
  destruct (version_of s k) as [v|].
  - destruct (add_p prof v 1) as [n|]; cbn [bindT]; [apply gen_pwv_is_model | reflexivity].
  - cbn [bindT]. apply gen_pwv_is_model.
Qed.

Lemma m_put_refusal_keeps prof s k val : snd (m_put prof s k val) <> ROk -> fst (m_put prof s k val) = s.
Proof.
  unfold m_put. destruct (next_version prof (version_of s k)); [apply m_pwv_refusal_keeps | reflexivity].
Qed.

Theorem gen_delete_is_model prof s k :
  gen_MemoryKVVStore_delete prof (mk_MemoryKVVStore s) k = of_mres (m_put prof s k []).
Proof. unfold gen_MemoryKVVStore_delete. apply gen_put_is_model. Qed.

Definition merge (data staged : store) : store :=
  fold_left (fun d (kv : kvv) => upsert (fst kv) (snd kv) d) staged data.

Lemma merge_sorted staged : forall data, ksorted data -> ksorted (merge data staged).
Proof.
  unfold merge. induction staged as [|[k e] r IH]; intros data S; cbn [fold_left fst snd]; [exact S|].
  apply IH. apply upsert_sorted. exact S.
Qed.

Lemma lookup_merge staged : forall data k, ksorted staged ->
  lookup k (merge data staged) = opt_or_else (lookup k staged) (lookup k data).
Proof.
  unfold merge. induction staged as [|[k0 e0] r IH]; intros data k S; cbn [fold_left fst snd lookup]; [reflexivity|].
  cbn [ksorted] in S. destruct S as [A S]. rewrite IH by exact S. rewrite lookup_upsert.
  destruct (kcmp k k0) eqn:E; [|reflexivity|reflexivity].
  apply kcmp_eq_iff in E. subst k0. rewrite (lookup_above k r) by exact A. reflexivity.
Qed.

Lemma merge_upsert data staged k e : ksorted data -> ksorted staged ->
  merge data (upsert k e staged) = upsert k e (merge data staged).
Proof.
  intros Sd Ss. apply sorted_ext.
  - apply merge_sorted. exact Sd.
  - apply upsert_sorted, merge_sorted. exact Sd.
  - intros x. rewrite lookup_merge by (apply upsert_sorted; exact Ss).
    rewrite !lookup_upsert, lookup_merge by exact Ss.
    destruct (kcmp x k); reflexivity.
Qed.

Lemma fold_insert_merge staged : forall data : store,
  fold_left (fun d_ (kv_ : list N * (N * list N)) => bmap_insert d_ (fst kv_) (snd kv_)) staged data = merge data staged.
Proof.
  unfold merge. induction staged as [|a r IH]; intros data; cbn [fold_left]; [reflexivity|].
  rewrite bmap_insert_upsert. apply IH.
Qed.

(** the loop of put_batch: while every entry is accepted, the staged map merged into the store
    is the model's running store *)
Lemma staged_loop (s : store) (body : store -> kvv -> trap (result store)) :
  ksorted s ->
  (forall staged k ver val,
     body staged (k, (ver, val)) =
     match judge (opt_or_else (lookup k staged) (lookup k s)) ver val with
     | Write => Val (OkR (upsert k (ver, val) staged))
     | Same => Val (OkR staged)
     | RefuseLt | RefuseEq => Val (ErrR "VersionMismatch"%string)
     end) ->
  forall l staged, ksorted staged ->
    match batch_go (merge s staged) l, fold_r body l staged with
    | Some s', Val (OkR st') => merge s st' = s'
    | None, Val (ErrR tg) => tg = "VersionMismatch"%string
    | _, _ => False
    end.
Proof.
  intros Ss Hb. induction l as [|[k [ver val]] r IH]; intros staged St; cbn [batch_go fold_r]; [reflexivity|].
  rewrite Hb, <- (lookup_merge staged s k St).
  destruct (judge (lookup k (merge s staged)) ver val); cbn [bindR]; try reflexivity.
  - rewrite <- merge_upsert by assumption. apply IH, upsert_sorted, St.
  - apply IH, St.
Qed.

Theorem gen_put_batch_is_model prof s l :
  ksorted s ->
  gen_MemoryKVVStore_put_batch prof (mk_MemoryKVVStore s) l = of_mres (m_batch s l).
Proof.
  intros Ss. unfold gen_MemoryKVVStore_put_batch. cbv beta zeta. cbn [MemoryKVVStore_data].
  match goal with |- bindR (fold_r ?B _ _) _ = _ => set (body := B) end.
  unshelve epose proof (staged_loop s body Ss _ l [] I) as Hloop.
  { intros staged k ver val. subst body. cbv beta iota zeta.
    rewrite judge_is_source, !bmap_get_lookup, bmap_insert_upsert. reflexivity. }
  change (merge s []) with s in Hloop. unfold m_batch, of_mres.
  (* goal and Hloop name the type of the loop state through different aliases (bmap .. / store): the destruct
     below finds both occurrences only once they are unfolded *)
  unfold bmap, store, kvv, vv, Kvv.value, key in *.
  destruct (batch_go s l) as [s'|], (fold_r body l []) as [[st'|tg]|]; cbv beta iota in Hloop; try contradiction;
    cbn [bindR fst snd].
  - rewrite fold_insert_merge. subst s'. reflexivity.
  - subst tg. reflexivity.
Qed.

Theorem gen_get_is_model prof s k :
  gen_MemoryKVVStore_get prof (mk_MemoryKVVStore s) k = Val (OkR (lookup k s)).
Proof. unfold gen_MemoryKVVStore_get. cbn [MemoryKVVStore_data]. rewrite bmap_get_lookup. reflexivity. Qed.

Definition conc (c : cloud) : CloudKVVStore :=
  mk_CloudKVVStore (mk_MemoryKVVStore (local c)) (clog c) (cpoison c).

(** a model answer as the generated functions return it; a panic is Trap - the poisoned flag the model sets
    with it is not represented on the generated side *)
Definition of_cres (x : cloud * res) : trap (result CloudKVVStore) :=
  match snd x with
  | ROk => Val (OkR (conc (fst x)))
  | RErr => Val (ErrR "VersionMismatch"%string)
  | RAbort => Trap
  end.

(** the cloud store asks the local store for the version first and for the entry only at an equal version *)
Lemma judge_is_source_cloud {X} (loc : store) k ver val (E S W : trap X) :
  match version_of loc k with
  | Some v =>
      if ver <? v then E else
      if ver =? v then (t <- expect_some (lookup k loc) ;; if negb (bytes_eqb (snd t) val) then E else S) else W
  | None => W
  end = match judge (lookup k loc) ver val with Write => W | Same => S | RefuseLt | RefuseEq => E end.
Proof.
  rewrite <- judge_is_source. unfold version_of. destruct (lookup k loc) as [[v0 val0]|]; reflexivity.
Qed.

Theorem gen_cloud_pwv_is_model prof c k ver val :
  gen_CloudKVVStore_put_with_version prof (conc c) k ver val = of_cres (c_pwv c k ver val).
Proof.
  destruct c as [loc lg po].
  unfold gen_CloudKVVStore_put_with_version, c_pwv, c_pwv_gen, with_log, staged_lower, of_cres, conc, c_poison.
  cbv beta zeta.
  cbn [CloudKVVStore_commit_log_poisoned CloudKVVStore_commit_log CloudKVVStore_local local clog cpoison andb].
  destruct po; [reflexivity|]. destruct lg as [l|]; [|reflexivity]. cbn [expect_some bindT].
  rewrite !gen_get_version_is_model, !gen_get_is_model. cbn [bindR].
  rewrite !judge_is_source_cloud, bmap_get_lookup, bmap_insert_upsert.
  unfold bmap, store, kvv, vv, Kvv.value, key in *.
  destruct (lookup k l) as [[sv sx]|]; [destruct (ver <? sv); [reflexivity|]|];
    destruct (judge (lookup k loc) ver val); reflexivity.
Qed.

Lemma c_pwv_refusal_keeps c k ver val : snd (c_pwv c k ver val) = RErr -> fst (c_pwv c k ver val) = c.
Proof.
  unfold c_pwv. destruct (c_pwv_gen_spec true c k ver val) as [c' r _ _ H| |]; cbn [fst snd]; [exact H|discriminate..].
Qed.

Theorem gen_cloud_put_is_model prof c k val :
  gen_CloudKVVStore_put prof (conc c) k val = of_cres (c_put prof c k val).
Proof.
  unfold gen_CloudKVVStore_put, c_put, c_put_gen, next_version. unfold conc at 1. cbn [CloudKVVStore_local].
  rewrite gen_get_version_is_model. cbn [bindR]. fold (conc c).
  destruct (version_of (local c) k) as [v|].
  - destruct (add_p prof v 1) as [n|]; cbn [bindT]; [apply gen_cloud_pwv_is_model | reflexivity].
  - cbn [bindT]. apply gen_cloud_pwv_is_model.
Qed.

Theorem gen_cloud_delete_is_model prof c k :
  gen_CloudKVVStore_delete prof (conc c) k = of_cres (c_put prof c k []).
Proof. unfold gen_CloudKVVStore_delete. apply gen_cloud_put_is_model. Qed.
