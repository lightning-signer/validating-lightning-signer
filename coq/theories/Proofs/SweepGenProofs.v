(** The sweep validators of the sweep model ([validate_sweep], [validate_delayed_sweep],
    [validate_justice_sweep] of Model/Sweep.v, with the repaired choice of the input whose sequence
    is read) are what the translated source computes: Gen/SweepGen.v is regenerated on every run from
    SimpleValidator::validate_sweep, ::validate_delayed_sweep, ::validate_justice_sweep.

    The translation has uninterpreted parameters for what lives outside vls-core's validator; the
    theorems instantiate them with the model's reading:
      the wallet          [can_spend] / [allowlisted] of the model's wallet (the oracle answers);
      rust-bitcoin        Version::TWO = 2, Time::MIN = [TIME_MIN], Height::from_consensus = a block
                          height below [LOCK_TIME_THRESHOLD], LockTime::is_satisfied_by = [is_satisfied_by]
                          (the model writes these out; the correspondence check exercises them).
    [conc_tx] is the source-level transaction of a model transaction (every value of the generated
    record is one).  Errors: transaction_format_err! ignores its tag argument - all four format
    classes of the model (version, locktime, sequence, other) are one tag in the source
    ([err_tag]); policy errors keep theirs.  The filter of the source is read on the tag names. *)
From Coq Require Import String.
From VLS Require Import Base.Rust Gen.SweepGen Proofs.RustFacts.
From VLS Require Import Model.Sweep.
From VLS Require Gen.CommitmentPolicyGen.
Require Import Lia.

Definition conc_tx (t : tx) : Transaction :=
  mk_Transaction (tx_version t) (tx_locktime t)
    (map (fun i => mk_TxIn (mk_Sequence (in_seq i))) (tx_ins t))
    (map (fun o => mk_TxOut (out_value o) (out_spk o)) (tx_outs t)).

Definition spend_fn (w : wallet) : N -> N -> N -> option bool :=
  fun _ path spk =>
    match can_spend w path spk with
    | CanSpend => Some true
    | CannotSpend => Some false
    | WalletError => None
    end.
Definition allow_fn (w : wallet) : N -> N -> N -> bool := fun _ spk path => allowlisted w spk path.
Definition height_fn : N -> option N := fun x => if x <? LOCK_TIME_THRESHOLD then Some x else None.

Definition format_class (t : stag) : bool :=
  match t with S_version | S_locktime | S_sequence | S_other => true | _ => false end.
Definition err_tag (t : stag) : string :=
  if format_class t then "policy-commitment-scripts"%string else stag_name t.

Definition of_sres (r : sres) : trap (result unit) :=
  match r with
  | SOk => Val (OkR tt)
  | SErr t => Val (ErrR (err_tag t))
  | SPanic => Trap
  end.

Definition sfilter (swarn : string -> bool) : stag -> bool := fun t => swarn (stag_name t).

Lemma of_sres_sthen a b : of_sres (sthen a b) = bindR (of_sres a) (fun _ => of_sres b).
Proof. destruct a; reflexivity. Qed.

Lemma nthN_nth_error {A} (l : list A) : forall i, nthN l i = nth_error l (N.to_nat i).
Proof.
  induction l as [|x r IH]; intros i; cbn [nthN].
  - destruct (N.to_nat i); reflexivity.
  - destruct (i =? 0) eqn:E.
    + apply N.eqb_eq in E. subst i. reflexivity.
    + apply N.eqb_neq in E. rewrite IH.
      replace (N.to_nat i) with (S (N.to_nat (i - 1))) by lia. reflexivity.
Qed.

Lemma vec_nth_map {A B} (f : A -> B) (l : list A) i :
  vec_nth (map f l) i = option_map f (nthN l i).
Proof. unfold vec_nth. rewrite nthN_nth_error. apply nth_error_map. Qed.

Lemma gen_outputs_loop swarn w wid path outs : forall u : unit,
  fold_r (fun (_ : unit) out =>
            t3 <-? ok_or (spend_fn w wid path (TxOut_script_pubkey out))
                         "policy-onchain-output-scriptpubkey"%string ;;
            t5 <-? (if negb t3 && negb (allow_fn w wid (TxOut_script_pubkey out) path)
                    then policy_err swarn "policy-sweep-destination-allowlisted"%string
                    else Val (OkR tt)) ;;
            Val (OkR tt))
         (map (fun o => mk_TxOut (out_value o) (out_spk o)) outs) u =
  of_sres (outputs_loop (sfilter swarn) w path outs).
Proof.
  induction outs as [|o r IH]; intros u; [destruct u; reflexivity|].
  cbn [map fold_r outputs_loop TxOut_script_pubkey].
  rewrite (bindR_cong _ _ (fun _ : unit => of_sres (outputs_loop (sfilter swarn) w path r)) IH).
  clear IH. unfold spend_fn, allow_fn.
  destruct (can_spend w path (out_spk o)); cbn [ok_or bindR negb andb]; rewrite ?bindR_unit, ?bindR_ok.
  - reflexivity.
  - destruct (allowlisted w (out_spk o) path); cbn [negb]; rewrite ?bindR_ok; [reflexivity|].
    unfold sperr, sfilter, policy_err. cbn [stag_name].
    destruct (swarn "policy-sweep-destination-allowlisted"%string); reflexivity.
  - reflexivity.
Qed.

Theorem gen_sweep_is_model prof swarn w wid t input amount path :
  gen_validate_sweep prof swarn 2 (spend_fn w) (allow_fn w) wid (conc_tx t) input amount path =
  of_sres (validate_sweep (sfilter swarn) w t path).
Proof.
  unfold gen_validate_sweep, validate_sweep. cbv beta zeta.
  cbn [conc_tx Transaction_version Transaction_output].
  rewrite !bindR_unit.
  destruct (tx_version t =? 2); cbn [negb]; [|reflexivity].
  rewrite bindR_ok.
  (* the loop body as generated, with its inner units removed *)
  etransitivity; [|apply (gen_outputs_loop swarn w wid path (tx_outs t) tt)].
  f_equal.
Qed.

Lemma gen_locktime_check prof h lt (k : trap (result unit)) (m : sres) :
  k = of_sres m ->
  (t2 <- add32_p prof h 2 ;;
   t3 <- expect_some (height_fn t2) ;;
   t6 <-? (if negb (is_satisfied_by lt t3 TIME_MIN)
           then (t4 <- add32_p prof h 2 ;; early_err "policy-commitment-scripts"%string)
           else Val (OkR tt)) ;;
   k) =
  of_sres (sthen (locktime_check prof lt h) m).
Proof.
  intros ->. unfold locktime_check, lag_height, height_fn, MAX_CHAIN_LAG.
  change add_p32 with add32_p.
  destruct (add32_p prof h 2) as [x|]; [|reflexivity].
  cbn [bindT]. destruct (x <? LOCK_TIME_THRESHOLD); cbn [expect_some bindT]; [|reflexivity].
  destruct (is_satisfied_by lt x TIME_MIN); reflexivity.
Qed.

Lemma gen_sequence_check (t : tx) input (ok : N -> bool) :
  (seq <-? (match vec_nth (Transaction_input (conc_tx t)) input with
            | None => Val (ErrR "policy-commitment-scripts"%string)
            | Some txin => Val (OkR (Sequence_0 (TxIn_sequence txin)))
            end) ;;
   t8 <-? (if negb (ok seq) then early_err "policy-commitment-scripts"%string else Val (OkR tt)) ;;
   Val (OkR tt)) =
  of_sres (sequence_check SignedInput t input ok).
Proof.
  unfold sequence_check, checked_input, no_such_input. cbn [conc_tx Transaction_input].
  rewrite vec_nth_map.
  destruct (nthN (tx_ins t) input) as [i|]; cbn [option_map bindR TxIn_sequence Sequence_0]; [|reflexivity].
  destruct (ok (in_seq i)); reflexivity.
Qed.

Theorem gen_delayed_sweep_is_model prof swarn w wid (gs : CommitmentPolicyGen.ChannelSetup)
    (gcs : CommitmentPolicyGen.ChainState) t input amount path :
  gen_validate_delayed_sweep prof swarn 2 (spend_fn w) (allow_fn w) height_fn TIME_MIN is_satisfied_by
                             wid gs gcs (conc_tx t) input amount path =
  of_sres (validate_delayed_sweep SignedInput prof (sfilter swarn) w
             (CommitmentPolicyGen.ChannelSetup_counterparty_selected_contest_delay gs)
             (CommitmentPolicyGen.ChainState_current_height gcs) t input path).
Proof.
  unfold gen_validate_delayed_sweep, validate_delayed_sweep. cbv beta zeta.
  rewrite gen_sweep_is_model, of_sres_sthen. apply bindR_cong. intros _.
  rewrite !bindR_unit.
  cbn [conc_tx Transaction_lock_time].
  apply gen_locktime_check.
  apply (gen_sequence_check t input
           (fun s => s =? CommitmentPolicyGen.ChannelSetup_counterparty_selected_contest_delay gs)).
Qed.

Theorem gen_justice_sweep_is_model prof swarn w wid (gs : CommitmentPolicyGen.ChannelSetup)
    (gcs : CommitmentPolicyGen.ChainState) t input amount path :
  gen_validate_justice_sweep prof swarn 2 (spend_fn w) (allow_fn w) height_fn TIME_MIN is_satisfied_by
                             wid gs gcs (conc_tx t) input amount path =
  of_sres (validate_justice_sweep SignedInput prof (sfilter swarn) w
             (CommitmentPolicyGen.ChainState_current_height gcs) t input path).
Proof.
  unfold gen_validate_justice_sweep, validate_justice_sweep. cbv beta zeta.
  rewrite gen_sweep_is_model, of_sres_sthen. apply bindR_cong. intros _.
  rewrite !bindR_unit.
  cbn [conc_tx Transaction_lock_time].
  apply gen_locktime_check.
  apply (gen_sequence_check t input (fun s => memN s NON_ANCHOR_SEQS)).
Qed.
