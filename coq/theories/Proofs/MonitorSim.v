(** The changes of a block do not depend on whether they are derived before the block was
    applied (connection) or after (disconnection): [decode_stable].  The two derivations
    are run side by side on the signatures of the cores; what the later one knows in addition
    concerns only outpoints of transactions that are still to come in the block ([sim]), and
    a consistent block never spends those early. *)
From VLS Require Import Model.Monitor Proofs.MonitorSets Proofs.MonitorDecode Proofs.MonitorUndo.

Definition slos (c : closing) : list outpoint := map fst (c_second c).
Definition htlc_idx (c : closing) : list N := map fst (c_htlcs c).

Lemma hflag_in cl v : hflag cl v <> None <-> In v (htlc_idx cl).
Proof. exact (aflag_in N.eqb N.eqb_eq (c_htlcs cl) v). Qed.
Lemma sflag_in cl o : sflag cl o <> None <-> In o (slos cl).
Proof. exact (aflag_in op_eqb op_eqb_eq (c_second cl) o). Qed.

Definition sim_fo (g : cfg) (fut : list change) (f1 f2 : option outpoint) : Prop :=
  f2 = f1 \/ (f1 = None /\ f2 = Some (fund g) /\ In (FundingConfirmed (fund g)) fut).
Definition sim_clo (fut : list change) (c1 c2 : option (N * option N * list N * list outpoint)) : Prop :=
  match c1, c2 with
  | None, None => True
  | Some (t1, o1, h1, l1), Some (t2, o2, h2, l2) =>
      t1 = t2 /\ o1 = o2 /\ h1 = h2 /\ incl l1 l2
      /\ (forall o, In o l2 -> In o l1 \/ exists v, In (HTLCOutputSpent v o) fut)
  | None, Some (t2, _, _, l2) =>
      (exists f our h, In (UnilateralClose t2 f our h) fut)
      /\ (forall o, In o l2 -> exists v, In (HTLCOutputSpent v o) fut)
  | Some _, None => False
  end.
Definition ssim (g : cfg) (fut : list change) (s1 s2 : option outpoint * option (N * option N * list N * list outpoint)) : Prop :=
  sim_fo g fut (fst s1) (fst s2) /\ sim_clo fut (snd s1) (snd s2).
Definition sim (g : cfg) (fut : list change) (k1 k2 : core) : Prop := ssim g fut (rsig k1) (rsig k2).

Lemma existsb_op_in (o : outpoint) l : existsb (fun x => op_eqb x o) l = true <-> In o l.
Proof.
  rewrite existsb_exists. split; [intros [x [Hx E]]; apply op_eqb_eq in E; subst; exact Hx | intros H; exists o; split; [exact H | apply op_eqb_refl]].
Qed.
Lemma in_cons_neq {A} (x c : A) l : In x (c :: l) -> x <> c -> In x l.
Proof. intros [H | H] Hn; [congruence | exact H]. Qed.

Lemma ssim_step g c fut s1 s2 s1' :
  ssim g (c :: fut) s1 s2 -> sig_step s1 c = Some s1' ->
  exists s2', sig_step s2 c = Some s2' /\ ssim g fut s1' s2'.
Proof.
  destruct s1 as [f1 c1], s2 as [f2 c2]. unfold ssim. cbn [fst snd]. intros [Hfo Hclo] Hf.
  assert (Hfo' : is_fc c = false -> sim_fo g fut f1 f2).
  { intros Hc. destruct Hfo as [H | [H1 [H2 H3]]]; [left; exact H | right].
    repeat split; auto. apply (in_cons_neq _ _ _ H3). intros E. subst c. discriminate. }
  assert (Hclo' : change_tid c = None \/ is_fc c = true -> sim_clo fut c1 c2).
  { intros Hc. unfold sim_clo in *. destruct c1 as [[[[t1 o1] h1] l1]|], c2 as [[[[t2 o2] h2] l2]|]; auto.
    - destruct Hclo as (H1 & H2 & H3 & H4 & H5). repeat split; auto. intros o Ho.
      destruct (H5 o Ho) as [H | [v H]]; [left; exact H | right; exists v].
      apply (in_cons_neq _ _ _ H). intros E. subst c. cbn in Hc. destruct Hc; discriminate.
    - destruct Hclo as [[f [our [h H1]]] H2]. split.
      + exists f, our, h. apply (in_cons_neq _ _ _ H1). intros E. subst c. cbn in Hc. destruct Hc; discriminate.
      + intros o Ho. destruct (H2 o Ho) as [v H]. exists v. apply (in_cons_neq _ _ _ H). intros E. subst c. cbn in Hc. destruct Hc; discriminate. }
  destruct c as [o|o|txid f our htlcs|txid f|v|v slo|o]; cbn [sig_step fst snd] in *.
  - inversion Hf; subst. eexists; split; [reflexivity|]. split; [left; reflexivity | apply Hclo'; right; reflexivity].
  - inversion Hf; subst. eexists; split; [reflexivity|]. split; [apply Hfo'; reflexivity | apply Hclo'; left; reflexivity].
  - inversion Hf; subst. eexists; split; [reflexivity|]. split; [apply Hfo'; reflexivity|].
    cbn [sim_clo]. repeat split; auto. apply incl_refl.
  - inversion Hf; subst. eexists; split; [reflexivity|]. split; [apply Hfo'; reflexivity | apply Hclo'; left; reflexivity].
  - (* our output: recognised on both sides *)
    destruct c1 as [[[[t1 [i|]] h1] l1]|]; try discriminate. destruct (i =? v) eqn:Ei; [|discriminate]. inversion Hf; subst.
    destruct c2 as [[[[t2 o2] h2] l2]|]; [|contradiction]. pose proof Hclo as (_ & <- & _). rewrite Ei.
    eexists; split; [reflexivity|]. split; [apply Hfo'; reflexivity | apply Hclo'; left; reflexivity].
  - (* HTLC output: the second-level outpoint appears on both sides *)
    destruct c1 as [[[[t1 o1] h1] l1]|]; [|discriminate]. destruct (existsb _ h1) eqn:Eh; [|discriminate]. inversion Hf; subst.
    destruct c2 as [[[[t2 o2] h2] l2]|]; [|contradiction]. destruct Hclo as (H1 & H2 & <- & H4 & H5). rewrite Eh.
    eexists; split; [reflexivity|]. split; [apply Hfo'; reflexivity|]. cbn [sim_clo]. repeat split; auto.
    + apply incl_app; [apply incl_appl; exact H4 | apply incl_appr; apply incl_refl].
    + intros o Ho. rewrite in_app_iff. apply in_app_or in Ho. destruct Ho as [Ho | [<- | []]]; [|left; right; left; reflexivity].
      destruct (H5 o Ho) as [H | [v' [H | H]]]; [left; left; exact H | inversion H; left; right; left; reflexivity | right; exists v'; exact H].
  - destruct c1 as [[[[t1 o1] h1] l1]|]; [|discriminate]. destruct (existsb _ l1) eqn:El; [|discriminate]. inversion Hf; subst.
    destruct c2 as [[[[t2 o2] h2] l2]|]; [|contradiction]. pose proof Hclo as (_ & _ & _ & H4 & _).
    apply existsb_op_in, H4, existsb_op_in in El. rewrite El.
    eexists; split; [reflexivity|]. split; [apply Hfo'; reflexivity | apply Hclo'; left; reflexivity].
Qed.

Lemma sim_steps g l : forall fut k1 k2 k1',
  sim g (l ++ fut) k1 k2 -> core_fwds k1 l = Ok k1' ->
  exists k2', core_fwds k2 l = Ok k2' /\ sim g fut k1' k2'.
Proof.
  induction l as [|c r IH]; intros fut k1 k2 k1' Hs Hf; cbn [app core_fwds] in *.
  - inversion Hf; subst. exists k2. split; [reflexivity | exact Hs].
  - binv Hf as ka E. pose proof (core_fwd_sig k1 c) as G1. rewrite E in G1.
    destruct (ssim_step _ _ _ _ _ _ Hs G1) as [s2' [G2 Hs2]]. pose proof (core_fwd_sig k2 c) as G3.
    destruct (core_fwd k2 c) as [kb|]; [|congruence]. cbn [bind]. rewrite G3 in G2. inversion G2; subst s2'.
    apply (IH _ _ _ _ Hs2 Hf).
Qed.

Definition fresh_for (fut : list change) (i : outpoint) : Prop :=
  forall c, In c fut -> change_tid c <> Some (fst i).

Lemma ckind_of_rsig k i : ckind_of k i = match snd (rsig k) with Some s => sig_kind s i | None => KNone end.
Proof. unfold ckind_of, rsig. cbn [snd]. destruct (snd k); [apply ckind_cl_csig | reflexivity]. Qed.

Lemma sim_rec g fut k1 k2 i :
  sim g fut k1 k2 -> fresh_for fut i -> fo_hit k1 i = fo_hit k2 i /\ ckind_of k1 i = ckind_of k2 i.
Proof.
  intros [Hfo Hclo] Hfr. split.
  - unfold fo_hit. cbn [rsig fst] in Hfo. destruct Hfo as [H | [H1 [H2 H3]]]; [rewrite H; reflexivity|].
    rewrite H1, H2. symmetry. apply op_eqb_neq. intros E. apply (Hfr _ H3). cbn. rewrite E. reflexivity.
  - rewrite !ckind_of_rsig. unfold sim_clo in Hclo.
    destruct (snd (rsig k1)) as [[[[t1 o1] h1] l1]|], (snd (rsig k2)) as [[[[t2 o2] h2] l2]|]; try contradiction; [| |reflexivity].
    + destruct Hclo as (-> & -> & -> & H4 & H5). unfold sig_kind.
      assert (existsb (fun x => op_eqb x i) l1 = existsb (fun x => op_eqb x i) l2) as ->; [|reflexivity].
      apply eq_true_iff_eq. rewrite !existsb_op_in. split; [apply H4|].
      intros Hi. destruct (H5 i Hi) as [H | [v H]]; [exact H|]. exfalso. apply (Hfr _ H). reflexivity.
    + destruct Hclo as [[f [our [h H1]]] H2]. unfold sig_kind.
      assert (Ht : (t2 =? fst i) = false).
      { apply N.eqb_neq. intros E. apply (Hfr _ H1). cbn. rewrite E. reflexivity. }
      rewrite Ht. cbn [andb]. destruct (existsb _ l2) eqn:Es; [|reflexivity].
      apply existsb_op_in in Es. destruct (H2 i Es) as [v H]. exfalso. apply (Hfr _ H). reflexivity.
Qed.

Definition agree (k1 k2 : core) (ins : list outpoint) : Prop :=
  forall i, In i ins -> fo_hit k1 i = fo_hit k2 i /\ ckind_of k1 i = ckind_of k2 i.

Lemma closed_form_agree g k1 k2 ins : agree k1 k2 ins ->
  inputs_changes g k1 ins = inputs_changes g k2 ins
  /\ (forall acc, closing_prev k1 ins acc = closing_prev k2 ins acc)
  /\ (forall n, htlc_hits k1 ins n = htlc_hits k2 ins n)
  /\ (forall n cp, input_asserts k1 n cp ins = input_asserts k2 n cp ins).
Proof.
  unfold inputs_changes. induction ins as [|i r IH]; intros H; cbn [map concat closing_prev htlc_hits input_asserts]; [auto|].
  destruct (H i (or_introl eq_refl)) as [E1 E2]. destruct (IH (fun j Hj => H j (or_intror Hj))) as (I1 & I2 & I3 & I4).
  rewrite I1. unfold input_changes. rewrite E1, E2. repeat split; intros; rewrite ?I2, ?I3, ?I4; reflexivity.
Qed.
Lemma tx_changes_agree g k1 k2 t : agree k1 k2 (tx_ins t) ->
  tx_changes g k1 t = tx_changes g k2 t /\ asserts_ok g k1 t = asserts_ok g k2 t.
Proof.
  intros H. destruct (closed_form_agree g _ _ _ H) as (I1 & I2 & I3 & I4).
  unfold tx_changes, asserts_ok. rewrite I1, I2, I3, I4. split; reflexivity.
Qed.

Fixpoint block_fresh (b : block) : Prop :=
  match b with
  | [] => True
  | t :: r => (forall i t', In i (tx_ins t) -> In t' (t :: r) -> fst i <> tx_id t') /\ block_fresh r
  end.

Theorem decode_stable g b : forall k1 chs k1' k2,
  steps g k1 b chs k1' -> block_fresh b -> sim g chs k1 k2 ->
  exists k2', steps g k2 b chs k2'.
Proof.
  induction b as [|t r IH]; intros k1 chs k1' k2 Hs Hfr Hsim.
  - inversion Hs; subst. exists k2. constructor.
  - inversion Hs as [| ? ? ? ka chs' ? Ha Hf Hr]; subst.
    destruct Hfr as [Hfr1 Hfr2].
    assert (Hag : agree k1 k2 (tx_ins t)).
    { intros i Hi. eapply sim_rec; [exact Hsim|]. intros c Hc Ht.
      destruct (steps_tid _ _ _ _ _ _ _ Hs Hc Ht) as [t' [Ht' E]]. apply (Hfr1 i t' Hi Ht'). exact E. }
    destruct (tx_changes_agree g _ _ _ Hag) as [Hch Has].
    destruct (sim_steps _ _ _ _ _ _ Hsim Hf) as [kb [Hfb Hsb]].
    destruct (IH _ _ _ _ Hr Hfr2 Hsb) as [k2' Hs2].
    exists k2'. rewrite Hch. econstructor; [rewrite <- Has; exact Ha | rewrite <- Hch; exact Hfb | exact Hs2].
Qed.

(** the right-hand core learns a change that [fut] holds *)
Lemma ssim_right g fut s1 s2 c s2' :
  ssim g fut s1 s2 -> sig_step s2 c = Some s2' -> In c fut ->
  (forall o, c = FundingConfirmed o -> fst s2 = None /\ o = fund g) ->
  (forall t f o h, c = UnilateralClose t f o h -> snd s2 = None) ->
  ssim g fut s1 s2'.
Proof.
  destruct s1 as [f1 c1], s2 as [f2 c2]. unfold ssim. cbn [fst snd]. intros [Hfo Hclo] Hf Hin Hfc Huc.
  destruct c as [o|o|txid f our htlcs|txid f|v|v slo|o]; cbn [sig_step fst snd] in Hf.
  - inversion Hf; subst. cbn [fst snd]. destruct (Hfc o eq_refl) as [-> ->]. split; [|exact Hclo].
    right. destruct Hfo as [<- | (_ & E & _)]; [auto | discriminate].
  - inversion Hf; subst. auto.
  - inversion Hf; subst. cbn [fst snd]. rewrite (Huc _ _ _ _ eq_refl) in Hclo. split; [exact Hfo|].
    destruct c1 as [[[[t1 o1] h1] l1]|]; [contradiction|]. split; [eauto | intros o []].
  - inversion Hf; subst. auto.
  - destruct c2 as [[[[t2 [i|]] h2] l2]|]; try discriminate. destruct (i =? v); [|discriminate]. inversion Hf; subst. auto.
  - destruct c2 as [[[[t2 o2] h2] l2]|]; [|discriminate]. destruct (existsb _ h2); [|discriminate]. inversion Hf; subst.
    cbn [fst snd]. split; [exact Hfo|]. destruct c1 as [[[[t1 o1] h1] l1]|]; cbn [sim_clo] in *.
    + destruct Hclo as (H1 & H2 & H3 & H4 & H5). repeat split; auto; [apply incl_appl, H4|].
      intros x Hx. apply in_app_or in Hx. destruct Hx as [Hx | [<- | []]]; [apply H5, Hx | right; eauto].
    + destruct Hclo as [H1 H2]. split; [exact H1|].
      intros x Hx. apply in_app_or in Hx. destruct Hx as [Hx | [<- | []]]; [apply H2, Hx | eauto].
  - destruct c2 as [[[[t2 o2] h2] l2]|]; [|discriminate]. destruct (existsb _ l2); [|discriminate]. inversion Hf; subst. auto.
Qed.

Lemma sim_grow g fut : forall cs k0 k k',
  sim g fut k0 k -> incl cs fut -> chain_cpre k cs -> (forall o, In (FundingConfirmed o) cs -> o = fund g) ->
  core_fwds k cs = Ok k' -> sim g fut k0 k'.
Proof.
  induction cs as [|c r IH]; intros k0 k k' Hs Hi Hc Hfc Hf; cbn [chain_cpre core_fwds] in *.
  - inversion Hf; subst. exact Hs.
  - destruct Hc as [Hp Hr]. binv Hf as ka E. pose proof (core_fwd_sig k c) as G. rewrite E in G.
    apply (IH k0 ka k'); [|intros x Hx; apply Hi; right; exact Hx | apply Hr; exact E | intros o Ho; apply Hfc; right; exact Ho | exact Hf].
    apply (ssim_right g fut (rsig k0) (rsig k) c (rsig ka) Hs G (Hi c (or_introl eq_refl))).
    + intros o ->. split; [exact Hp | apply Hfc; left; reflexivity].
    + intros t f o h ->. cbn [cpre] in Hp. cbn [rsig snd]. rewrite Hp. reflexivity.
Qed.

Lemma sim_init g cs k k' :
  chain_cpre k cs -> (forall o, In (FundingConfirmed o) cs -> o = fund g) -> core_fwds k cs = Ok k' -> sim g cs k k'.
Proof.
  apply sim_grow; [|apply incl_refl]. split; [left; reflexivity|]. unfold sim_clo.
  destruct (snd (rsig k)) as [[[[t o] h] l]|]; [|exact I]. repeat split; auto. apply incl_refl.
Qed.
