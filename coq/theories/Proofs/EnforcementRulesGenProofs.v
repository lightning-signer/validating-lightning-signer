(** The commitment-number decisions of the enforcement model (Model/Enforcement.v: the checks
    inside [do_sign_cp], [do_revocation], [do_validate], [do_sign_holder], and the guard in front of
    [advance_h] in [do_revoke]) are what the translated source computes.  Gen/EnforcementRulesGen.v is regenerated on every run from
      validate_counterparty_commitment_tx, validate_holder_commitment_tx,
      validate_counterparty_revocation   (impl Validator for SimpleValidator)
      get_current_holder_commitment_info, set_next_holder_commit_num (provided methods of trait Validator)
    over the record of Gen/EnforcementGen.v.

    Reading of the results.  The model's checks are booleans (accepted / refused) with a separate
    abort outcome; the source returns [OkR], [ErrR tag] or panics.  [status_of] forgets the tag:
    [Some true] accepted, [Some false] refused, [None] panic.  The model's filter is a function of
    its tags; the source's filter is a function of the tag string: [etag_filter swarn t = swarn
    (etag_name t)], so that [perr (etag_filter swarn) t = negb (swarn (etag_name t))].  Every model
    tag stands for exactly one source tag in the functions translated here.

    [to_res fr e] (Proofs/EnforcementGenProofs.v) is the source-level EnforcementState of a model
    state [e]; [fr] holds the fields the model does not have.  The content verdict of
    validate_commitment_tx (the model's [pol_ok]) is the parameter [v] of the translation. *)
From Coq Require Import String.
From VLS Require Import Base.Rust Model.Enforcement Gen.EnforcementGen Gen.EnforcementRulesGen
  Proofs.EnforcementGenProofs Proofs.RustFacts.
Require Import Lia.

Definition etag_name (t : tag) : string :=
  match t with
  | TRevokeNewSigned => "policy-revoke-new-commitment-signed"
  | TRevokeNotClosed => "policy-revoke-not-closed"
  | TRetrySame => "policy-commitment-retry-same"
  | THolderNotRevoked => "policy-commitment-holder-not-revoked"
  | TSpendsActive => "policy-commitment-spends-active-utxo"
  | TOther => "policy-other"
  | TPrevRevoked => "policy-commitment-previous-revoked"
  end%string.

Definition etag_filter (swarn : string -> bool) : tag -> bool := fun t => swarn (etag_name t).

(** the content verdict comes first: anything but [Ok] is the function's answer *)
Definition after_content (v : trap (result unit)) (rest : option bool) : option bool :=
  match status_of v with
  | Some true => rest
  | o => o
  end.

Lemma status_after_content {A} (v : trap (result unit)) (k : trap (result A)) :
  status_of (bindR v (fun _ => k)) = after_content v (status_of k).
Proof. destruct v as [[[]|t]|]; reflexivity. Qed.

Lemma checks3 (a b c : bool) :
  (if a then Some false else if b then Some false else if c then Some false else Some true) =
  Some (negb a && negb b && negb c).
Proof. destruct a, b, c; reflexivity. Qed.

Lemma opt_id_eqb_some c o : opt_id_eqb (Some c) o = opt_eqb o c.
Proof. destruct o as [x|]; cbn [opt_id_eqb opt_eqb]; [apply N.eqb_sym | reflexivity]. Qed.

Lemma opt_point_check swarn (o : option N) pt t :
  match o with
  | Some prev => bindR (if negb (pt =? prev) then policy_err swarn t else Val (OkR tt)) (fun _ => Val (OkR tt))
  | None => policy_err swarn t
  end = (if negb (opt_eqb o pt) then policy_err swarn t else Val (OkR tt)).
Proof. destruct o as [p|]; cbn [opt_eqb negb]; [rewrite bindR_unit, (N.eqb_sym pt p)|]; reflexivity. Qed.

(** a last check that requires [x]: the model writes [x || negb (perr t)] *)
Lemma status_must swarn (x : bool) t :
  status_of (if negb x then policy_err swarn t else Val (OkR tt)) = Some (x || negb (negb (swarn t))).
Proof. rewrite status_check_last. destruct x, (swarn t); reflexivity. Qed.

(** * validate_holder_commitment_tx: retry-same, holder-not-revoked, closed channel

    [validate_holder_state] is the model's rendering of everything after the content verdict.
    Side condition [next_h e < U64MAX]: the model adds [n + 1] and [n + 2] before it looks at the
    retry rule, the source adds [n + 2] only after it.  The two orders differ for one input: a debug
    build, [next_holder_commit_num = 2^64 - 1] and [n = 2^64 - 2] with a changed content (the source
    refuses with retry-same, the model says abort).  A counter that starts at 0 and advances by 1
    per accepted commitment does not get there. *)
Theorem gen_holder_checks_are_model prof swarn fr e v n pt setup cstate c :
  next_h e < U64MAX ->
  status_of (gen_validate_holder_commitment_tx prof swarn v (to_res fr e) n pt setup cstate c) =
  after_content v (validate_holder_state (etag_filter swarn) prof e n c).
Proof.
  intros Hh. unfold gen_validate_holder_commitment_tx. cbv beta zeta.
  rewrite status_after_content. f_equal.
  unfold validate_holder_state, perr, etag_filter. cbn [etag_name]. projections.
  name_string t1 (etag_name TRetrySame). name_string t2 (etag_name THolderNotRevoked).
  name_string t3 (etag_name TSpendsActive).
  destruct (add_p prof n 1) as [n1|] eqn:E1; [|reflexivity].
  assert (Hn1 : add_p prof n 2 = Trap -> (n1 =? next_h e) = false).
  { intros E2. destruct prof; cbn [add_p] in E1, E2; [|discriminate E2].
    destruct (n + 1 <=? U64MAX) eqn:L1; [|discriminate E1].
    destruct (n + 2 <=? U64MAX) eqn:L2; [discriminate E2|].
    injection E1 as <-. apply N.eqb_neq. lia. }
  destruct (add_p prof n 2) as [n2|] eqn:E2.
  - norm.
    destruct (n1 =? next_h e).
    + destruct (cur_h e) as [c0|]; cbn [expect_some bindT]; [|reflexivity].
      cbv beta zeta. norm.
      rewrite !status_check, status_check_last, (N.eqb_sym c c0), checks3, negb_andb, negb_involutive.
      reflexivity.
    + norm. rewrite !status_check, status_check_last. apply (checks3 false).
  - norm. rewrite (Hn1 eq_refl). norm. reflexivity.
Qed.

(** * validate_counterparty_commitment_tx: the revocation window and the retry rule

    The right-hand side is the decision of [do_sign_cp] after the content verdict: the window test
    [(next_r e + 1 <? n) && perr TPrevRevoked] (refused), the addition [n + 1] (abort), then
    [validate_cp_state e n n1 n2 pt c].  [n2] is arbitrary: [validate_cp_state] reads it only through
    [prev_info_for] in the branch [n1 = next_c e], where the answer is the current info whatever [n2]
    is ([gen_prev_info_current]) - and the source does not compute [n + 2] there.  Side condition [next_r e < U64MAX]: the source
    computes [next_counterparty_revoke_num + 1] with a plain [+]. *)
Theorem gen_cp_checks_are_model prof swarn fr e v n pt setup cstate c n2 :
  next_r e < U64MAX ->
  status_of (gen_validate_counterparty_commitment_tx prof swarn v (to_res fr e) n pt setup cstate c) =
  after_content v
    (if (next_r e + 1 <? n) && perr (etag_filter swarn) TPrevRevoked then Some false
     else match add_p prof n 1 with
          | Trap => None
          | Val n1 => Some (validate_cp_state (etag_filter swarn) e n n1 n2 pt c)
          end).
Proof.
  intros Hr. unfold gen_validate_counterparty_commitment_tx. cbv beta zeta.
  rewrite status_after_content. f_equal.
  unfold validate_cp_state, prev_info_for, perr, etag_filter. cbn [etag_name]. projections.
  name_string t1 (etag_name TPrevRevoked). name_string t2 (etag_name TRetrySame).
  rewrite (add_p_ok prof (next_r e) 1) by lia. norm.
  rewrite status_check.
  destruct ((next_r e + 1 <? n) && negb (swarn t1)) eqn:Ew;
    [reflexivity|].
  destruct (add_p prof n 1) as [n1|] eqn:E1; [|reflexivity].
  norm. cbn [negb andb].
  destruct (n1 =? next_c e) eqn:En; [|reflexivity].
  rewrite (gen_prev_info_current prof (to_res fr e) n n1 E1 En). projections.
  norm. cbv beta zeta. norm.
  rewrite opt_point_check, status_check, status_must, opt_id_eqb_some.
  destruct (opt_eqb (cur_pt e) pt), (swarn t2); reflexivity.
Qed.

(** * validate_counterparty_revocation: the number checks and the point of the secret

    The right-hand side is [do_revocation] up to [revocation_checks]: [r + 1] (abort), [r + 2] only
    when [r + 1] is not the next commitment number (on its overflow: refused if the number check
    refuses, abort otherwise), then [revocation_checks e r r1 r2 pt_of_secret].  The point of the
    secret is [point_of ctx secret], for an arbitrary function [point_of] (PublicKey::from_secret_key)
    and context.  No side condition. *)
Theorem gen_revocation_checks_are_model prof swarn fr e ctx (point_of : N -> N -> N) r secret :
  status_of (gen_validate_counterparty_revocation prof swarn ctx point_of (to_res fr e) r secret) =
  match add_p prof r 1 with
  | Trap => None
  | Val r1 =>
      match (if r1 =? next_c e then Val 0 else add_p prof r 2) with
      | Trap =>
          if negb (r =? next_r e) && negb (r1 =? next_r e) && perr (etag_filter swarn) TPrevRevoked
          then Some false else None
      | Val r2 => Some (revocation_checks (etag_filter swarn) e r r1 r2 (point_of ctx secret))
      end
  end.
Proof.
  unfold gen_validate_counterparty_revocation, gen_get_previous_counterparty_point. cbv beta zeta.
  unfold revocation_checks, prev_point_for, perr, etag_filter. cbn [etag_name]. projections.
  name_string t1 (etag_name TPrevRevoked).
  destruct (add_p prof r 1) as [r1|] eqn:E1.
  - cbn [bindT]. rewrite if_val. norm. rewrite status_check.
    change (if negb (r =? next_r e) then negb (r1 =? next_r e) else false)
      with (negb (r =? next_r e) && negb (r1 =? next_r e)).
    destruct (negb (r =? next_r e) && negb (r1 =? next_r e)
              && negb (swarn t1)) eqn:Ew.
    + destruct (r1 =? next_c e); [reflexivity|]. destruct (add_p prof r 2); reflexivity.
    + destruct (r1 =? next_c e).
      * cbn [bindT negb andb]. rewrite bindR_unit, opt_point_check. apply status_must.
      * destruct (add_p prof r 2) as [r2|]; [|reflexivity].
        cbn [bindT negb andb]. rewrite if_val. cbn [bindT]. rewrite bindR_unit, opt_point_check. apply status_must.
  - (* r + 1 overflows: with r = next_r the number check passes without the addition, and the look-up
       of the previous point panics on it *)
    destruct (negb (r =? next_r e)); reflexivity.
Qed.

(** * get_current_holder_commitment_info: the guard of sign_holder_commitment_tx

    Exactly the head of [do_sign_holder]: [n + 1] (abort), refusal with policy-other unless
    [n + 1 = next_h e] (or the filter downgrades the tag), a panic when there is no current holder
    commitment, otherwise the current content - the one the signature is then made for. *)
Theorem gen_holder_sign_guard_is_model prof swarn fr e n :
  gen_get_current_holder_commitment_info prof swarn (to_res fr e) n =
  match add_p prof n 1 with
  | Trap => Trap
  | Val n1 =>
      if negb (n1 =? next_h e) && perr (etag_filter swarn) TOther
      then Val (ErrR (etag_name TOther))
      else match cur_h e with
           | None => Trap
           | Some c => Val (OkR c)
           end
  end.
Proof.
  unfold gen_get_current_holder_commitment_info. cbv beta zeta.
  unfold perr, etag_filter. cbn [etag_name]. projections. name_string t1 (etag_name TOther).
  destruct (add_p prof n 1) as [n1|]; [|reflexivity].
  norm. unfold policy_err.
  destruct (negb (n1 =? next_h e)); destruct (swarn t1); cbn [negb andb bindR];
    destruct (cur_h e); reflexivity.
Qed.

(** * Validator::set_next_holder_commit_num: the advance of the holder side

    The guard in front of the state update: a number that is neither the current next number nor
    its successor is refused (policy-revoke-new-commitment-signed); the successor advances the
    state exactly like the model's [advance_h]; the current number itself passes the guard and then
    dies in the assert_eq! of EnforcementState::set_next_holder_commit_num.  channel.rs only calls
    this with the successor ([do_revoke] advances only when [n = next_h e]). *)
Theorem gen_holder_advance_is_model prof swarn fr e num c sigs :
  next_h e < U64MAX ->
  EnforcementRulesGen.gen_set_next_holder_commit_num prof swarn (to_res fr e) num c sigs =
  if negb (num =? next_h e) && negb (num =? next_h e + 1) && perr (etag_filter swarn) TRevokeNewSigned
  then Val (ErrR (etag_name TRevokeNewSigned))
  else if num =? next_h e + 1
       then Val (OkR (to_res (mkF (Some sigs) (f_initial fr) (f_secrets fr)) (advance_h e c)))
       else Trap.
Proof.
  intros Hh. unfold EnforcementRulesGen.gen_set_next_holder_commit_num. cbv beta zeta.
  rewrite (gen_set_holder_is_model prof fr e num c sigs Hh).
  unfold perr, etag_filter. cbn [etag_name]. projections.
  name_string t1 (etag_name TRevokeNewSigned).
  rewrite (add_p_ok prof (next_h e) 1) by lia. cbn [bindT]. rewrite if_val. norm.
  unfold policy_err.
  destruct (num =? next_h e) eqn:E0; destruct (num =? next_h e + 1) eqn:E1;
    destruct (swarn t1); cbn [negb andb bindR bindT]; reflexivity.
Qed.
