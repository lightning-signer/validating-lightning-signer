(** C14: connecting a block and disconnecting it restores the monitor (state, watches, seen);
    every admissible history ends in the monitor of its surviving best chain; no abort. *)
From VLS Require Import Model.Monitor Proofs.MonitorSets Proofs.MonitorDecode Proofs.MonitorUndo
  Proofs.MonitorSim Proofs.MonitorInv.

Fixpoint cdeltas (k : core) (cs : list change) : list outpoint * list outpoint :=
  match cs with
  | [] => ([], [])
  | c :: r =>
      match core_fwd k c with
      | Ok k' => let '(a, rm) := cdeltas k' r in (change_adds k' c ++ a, change_removes k' c ++ rm)
      | Abort => ([], [])
      end
  end.

Lemma apply_all_fwd_deltas cs : forall s s1 A R,
  apply_all apply_forward s cs = Ok (s1, A, R) -> (A, R) = cdeltas (core_of s) cs.
Proof.
  induction cs as [|c r IH]; intros s s1 A R H.
  - inversion H; reflexivity.
  - destruct (apply_all_fwd_cons _ _ _ _ _ _ H) as (k & A2 & R2 & Ek & E2 & -> & ->).
    apply IH in E2. rewrite core_of_fwd_state in E2. cbn [cdeltas]. rewrite Ek, <- E2. reflexivity.
Qed.

(** outpoints the monitor wants watched while they are unspent *)
Definition tracked (cl : closing) : list outpoint :=
  (match c_our cl with Some (i, _) => [(c_txid cl, i)] | None => [] end)
  ++ map (fun v => (c_txid cl, v)) (htlc_idx cl) ++ slos cl.
Definition wanted (g : cfg) (k : core) : list outpoint :=
  finputs g ++ (match fst k with Some f => [f] | None => [] end)
  ++ (match snd k with Some cl => tracked cl | None => [] end).

Lemma in_wanted g k o : In o (wanted g k) <->
  In o (finputs g) \/ fst k = Some o \/ exists cl, snd k = Some cl /\ In o (tracked cl).
Proof.
  unfold wanted. rewrite !in_app_iff. split.
  - intros [H | [H | H]]; [left; exact H | right; left | right; right].
    + destruct (fst k); [destruct H as [<- | []]; reflexivity | destruct H].
    + destruct (snd k) as [cl|]; [exists cl; auto | destruct H].
  - intros [H | [H | [cl [H1 H2]]]]; [left; exact H | right; left | right; right].
    + rewrite H. left; reflexivity.
    + rewrite H1. exact H2.
Qed.

Lemma tracked_new txid our h :
  tracked (new_closing txid our h) = (match our with Some i => [(txid, i)] | None => [] end) ++ map (fun i => (txid, i)) h.
Proof.
  unfold tracked, new_closing, htlc_idx, slos. cbn [c_our c_txid c_htlcs c_second map]. rewrite app_nil_r.
  f_equal; [destruct our; reflexivity|]. rewrite !map_map. cbn [fst]. reflexivity.
Qed.

Lemma tracked_fwd k c k' : core_fwd k c = Ok k' -> needs_closing c = true ->
  exists cl cl', snd k = Some cl /\ k' = (fst k, Some cl')
    /\ incl (change_removes k c) (tracked cl) /\ tracked cl' = tracked cl ++ new_slos c.
Proof.
  intros H Hc. destruct (core_fwd_flags _ _ _ H Hc) as (cl & cl' & Ek & -> & Et & Eh & Es & Eo & _ & _ & Hx).
  exists cl, cl'. split; [exact Ek|]. split; [reflexivity|].
  assert (Hct : ctxid_of k = c_txid cl) by (unfold ctxid_of; rewrite Ek; reflexivity).
  unfold tracked, htlc_idx, slos. rewrite Et, Eh, Es, !app_assoc. split.
  - destruct c as [| | | |v|v slo|o]; try discriminate; cbn [change_removes]; rewrite ?Hct; intros x [<- | []]; rewrite !in_app_iff.
    + destruct Eo as [[b Eb] _]. rewrite Eb. left; left; left; reflexivity.
    + left; right. apply in_map. apply hflag_in. exact Hx.
    + right. apply sflag_in. exact Hx.
  - do 2 f_equal. destruct c as [| | | |v| |]; try discriminate; try (rewrite Eo; reflexivity).
    destruct Eo as [[b ->] ->]. reflexivity.
Qed.

Section Main.
Variable g : cfg.
Notation F := (fund g).

(** [core_fwd_ctxid] for every change but UnilateralClose; nothing in the development uses it *)
Corollary ctxid_fwd k c k' : core_fwd k c = Ok k' -> snd k <> None ->
  (match c with UnilateralClose _ _ _ _ => False | _ => True end) -> ctxid_of k' = ctxid_of k.
Proof.
  intros Hf _ Hc. destruct (needs_closing c) eqn:Hn; [exact (core_fwd_ctxid _ _ _ Hf Hn)|].
  destruct c; try discriminate Hn; try contradiction Hc; cbn [core_fwd] in Hf; injection Hf as <-; reflexivity.
Qed.

Lemma delta_step ins tids k c k' :
  cok g ins tids k c -> core_fwd k c = Ok k' ->
  (forall a, In a (change_adds k' c) -> In (fst a) tids /\ ~ In a (finputs g))
  /\ (forall r, In r (change_removes k' c) -> In r ins /\ In r (wanted g k))
  /\ (forall o, In o (wanted g k') -> In o (wanted g k) \/ In o (change_adds k' c)).
Proof.
  intros (Hp & Hj & Hi & Ha) Hf. split; [exact Ha|]. destruct (needs_closing c) eqn:Hc.
  - rewrite (change_removes_ctxid _ _ c (core_fwd_ctxid _ _ _ Hf Hc)).
    destruct (tracked_fwd _ _ _ Hf Hc) as (cl & cl' & Ek & -> & Hr & Et). split.
    + intros r Hin. split; [exact (Hi r Hin)|]. apply in_wanted. right; right. exists cl. split; [exact Ek | exact (Hr r Hin)].
    + intros x Hx. apply in_wanted in Hx. cbn [fst snd] in Hx. rewrite in_wanted.
      destruct Hx as [Hx | [Hx | [c0 [Hx1 Hx2]]]]; [auto | auto |]. inversion Hx1; subst c0. rewrite Et in Hx2.
      apply in_app_or in Hx2. destruct Hx2 as [Hx2 | Hx2]; [left; right; right; exists cl; auto | right].
      destruct c as [| | | | |v slo|]; try (destruct Hx2; fail). exact Hx2.
  - destruct c; try discriminate; cbn [cpre cjust core_fwd change_removes change_adds] in *; inversion Hf; subst; cbn [fst snd].
    + split; [intros r []|]. intros x Hx. apply in_wanted in Hx. cbn [fst snd] in Hx.
      destruct Hx as [Hx | [Hx | Hx]]; [left; apply in_wanted; auto | right; inversion Hx; left; reflexivity | left; apply in_wanted; auto].
    + split; [|intros x Hx; left; exact Hx]. intros r Hr. split; [exact (Hi r Hr)|]. destruct Hr as [<- | []]. apply in_wanted; left; exact Hj.
    + split.
      * intros r Hr. split; [exact (Hi r Hr)|]. destruct Hr as [<- | []]. apply in_wanted; right; left; exact (proj1 Hj).
      * intros x Hx. apply in_wanted in Hx. cbn [fst snd] in Hx.
        destruct Hx as [Hx | [Hx | [cl [Hx1 Hx2]]]]; [left; apply in_wanted; auto | left; apply in_wanted; auto | right].
        inversion Hx1; subst cl. rewrite tracked_new in Hx2. exact Hx2.
    + split; [|intros x Hx; left; exact Hx]. intros r Hr. split; [exact (Hi r Hr)|]. destruct Hr as [<- | []]. apply in_wanted; right; left; exact Hj.
Qed.

Lemma deltas_spec ins tids cs : forall k k',
  chain_ok g ins tids k cs -> core_fwds k cs = Ok k' ->
  let '(A, R) := cdeltas k cs in
  (forall a, In a A -> In (fst a) tids /\ ~ In a (finputs g))
  /\ (forall r, In r R -> In r ins /\ (In r (wanted g k) \/ In r A))
  /\ (forall o, In o (wanted g k') -> In o (wanted g k) \/ In o A).
Proof.
  induction cs as [|c r IH]; intros k k' Hc Hf; cbn [core_fwds cdeltas] in *.
  - inversion Hf; subst. split; [intros ? []|]. split; [intros ? []|]. intros o Ho. left; exact Ho.
  - destruct Hc as [Hc Hr]. binv Hf as k1 E. rewrite E.
    destruct (delta_step _ _ _ _ _ Hc E) as (D1 & D2 & D3).
    specialize (IH k1 k' (Hr _ E) Hf). destruct (cdeltas k1 r) as [A R]. destruct IH as (I1 & I2 & I3).
    split; [|split].
    + intros a Ha. apply in_app_or in Ha. destruct Ha as [Ha | Ha]; [apply D1; exact Ha | apply I1; exact Ha].
    + intros x Hx. apply in_app_or in Hx. destruct Hx as [Hx | Hx].
      * destruct (D2 x Hx) as [G1 G2]. split; [exact G1 | left; exact G2].
      * destruct (I2 x Hx) as [G1 [G2 | G2]]; split; auto.
        -- destruct (D3 x G2) as [G3 | G3]; [left; exact G3 | right; apply in_or_app; left; exact G3].
        -- right. apply in_or_app. right. exact G2.
    + intros o Ho. destruct (I3 o Ho) as [G | G].
      * destruct (D3 o G) as [G3 | G3]; [left; exact G3 | right; apply in_or_app; left; exact G3].
      * right. apply in_or_app. right. exact G.
Qed.

Lemma spent_after_incl b : forall S, incl S (spent_after S b) /\ incl (ins_of b) (spent_after S b).
Proof. intros S. split; intros x Hx; apply in_spent_after; [left | right]; exact Hx. Qed.
Lemma tids_after_incl b : forall T, incl T (tids_after T b) /\ incl (tids_of b) (tids_after T b).
Proof. intros T. split; intros x Hx; apply in_tids_after; [left | right]; exact Hx. Qed.

Lemma txs_ok_in b : forall S T t, txs_ok g S T b = true -> In t b ->
  exists S1 T1, incl S S1 /\ incl T T1 /\ txhyp g S1 T1 t.
Proof.
  induction b as [|t0 r IH]; intros S T t H Ht; [destruct Ht|].
  cbn [txs_ok] in H. apply andb_true_iff in H. destruct H as [H1 H2]. destruct Ht as [<- | Ht].
  - exists S, T. split; [apply incl_refl|]. split; [apply incl_refl | apply tx_ok_hyp; exact H1].
  - destruct (IH _ _ _ H2 Ht) as [S1 [T1 (A1 & A2 & A3)]]. exists S1, T1. split; [|split; [|exact A3]].
    + intros x Hx. apply A1. apply in_or_app. right. exact Hx.
    + intros x Hx. apply A2. right. exact Hx.
Qed.
Lemma txs_ok_ins_fresh b S T x : txs_ok g S T b = true -> In x (ins_of b) -> ~ In x S.
Proof.
  intros H Hx HS. unfold ins_of in Hx. apply in_concat in Hx. destruct Hx as [l [Hl Hx]].
  apply in_map_iff in Hl. destruct Hl as [t [<- Ht]].
  destruct (txs_ok_in _ _ _ _ H Ht) as [S1 [T1 (A1 & _ & A3)]]. apply (h_fresh _ _ _ _ A3 x Hx). apply A1. exact HS.
Qed.

Lemma txs_ok_fresh b : forall S T, txs_ok g S T b = true -> block_fresh b.
Proof.
  induction b as [|t r IH]; intros S T H; cbn [block_fresh]; [exact I|].
  cbn [txs_ok] in H. apply andb_true_iff in H. destruct H as [H1 H2]. split; [|eapply IH; exact H2].
  intros i t' Hi [<- | Ht'].
  - apply (h_self _ _ _ _ (tx_ok_hyp _ _ _ _ H1)). exact Hi.
  - destruct (txs_ok_in _ _ _ _ H2 Ht') as [S1 [T1 (A1 & _ & A3)]]. intros E. apply (h_later _ _ _ _ A3).
    rewrite <- E. apply in_map, A1, in_or_app. left. exact Hi.
Qed.

(** a change of the run meets [cok] on the core it is applied to, and that core's funding outpoint is
    still none or the registered one: [cok] itself says where a FundingConfirmed points.  [chain_ok_in] is
    [chain_ok_at] under a premise it does not need; nothing in the development uses it *)
Lemma chain_ok_at ins tids cs k k' c :
  chain_ok g ins tids k cs -> core_fwds k cs = Ok k' -> In c cs ->
  exists kc, cok g ins tids kc c /\ (fst k = None \/ fst k = Some F -> fst kc = None \/ fst kc = Some F).
Proof.
  intros Hc Hf Hin.
  apply (crun_in _ (fun kc => fst k = None \/ fst k = Some F -> fst kc = None \/ fst kc = Some F)) with (cs := cs) (k := k) (k' := k'); auto.
  intros k0 c0 k1 (_ & Hj & _) E H H0. specialize (H H0). rewrite (core_fwd_fst _ _ _ E). destruct c0; auto. right. f_equal. apply Hj.
Qed.
Corollary chain_ok_in ins tids cs : forall k k' c,
  chain_ok g ins tids k cs -> core_fwds k cs = Ok k' -> In c cs ->
  exists kc, cok g ins tids kc c /\ (fst k = None \/ fst k = Some F -> (forall o, In (FundingConfirmed o) cs -> o = F) -> fst kc = None \/ fst kc = Some F).
Proof.
  intros k k' c Hc Hf Hin. destruct (chain_ok_at _ _ _ _ _ _ Hc Hf Hin) as (kc & Hk & H). exists kc. split; [exact Hk | intros H0 _; exact (H H0)].
Qed.

(** nothing in the development uses it (the flags are read through [aflag_all]) *)
Lemma forallb_find {A} (p q : A -> bool) l x : forallb q l = true -> find p l = Some x -> q x = true.
Proof. intros H Hf. apply find_some in Hf. rewrite forallb_forall in H. apply H, Hf. Qed.

Definition csw (k : core) : bool := match snd k with Some c => all_spent c | None => false end.
Definition osw (k : core) : bool :=
  match snd k with Some c => match c_our c with Some (_, b) => b | None => true end | None => false end.

Lemma csw_step k c k' : cpre k c -> core_fwd k c = Ok k' -> csw k = true -> snd k' = snd k.
Proof.
  intros Hp Hf Hs. unfold csw in Hs. destruct (snd k) as [cl|] eqn:Ecl; [|discriminate].
  unfold all_spent in Hs. apply andb_true_iff in Hs. destruct Hs as [Hs Hs3]. apply andb_true_iff in Hs. destruct Hs as [Hs1 Hs2].
  destruct c; cbn [cpre core_fwd] in *; try (inversion Hf; subst; cbn [snd]; congruence);
    exfalso; destruct Hp as [c0 [E Hp]]; rewrite Ecl in E; injection E as <-.
  - rewrite Hp in Hs1. discriminate.
  - exact (aflag_all N.eqb _ _ Hs2 (proj1 Hp)).
  - exact (aflag_all op_eqb _ _ Hs3 Hp).
Qed.
Lemma csw_chain cs : forall k k', chain_cpre k cs -> core_fwds k cs = Ok k' -> csw k = true -> csw k' = true.
Proof.
  apply (crun_inv cpre (fun k => csw k = true)). intros k c k' Hp Hf Hs.
  unfold csw. rewrite (csw_step _ _ _ Hp Hf Hs). exact Hs.
Qed.
Lemma osw_step k c k' : cpre k c -> core_fwd k c = Ok k' -> osw k = true -> osw k' = true.
Proof.
  intros Hp Hf Hs. unfold osw in *. destruct (needs_closing c) eqn:Hc.
  - destruct (core_fwd_flags _ _ _ Hf Hc) as (cl & cl' & Ek & -> & _ & _ & _ & Eo & _). rewrite Ek in Hs. cbn [snd].
    destruct c; try discriminate; try (rewrite Eo; exact Hs). destruct Eo as [_ ->]. reflexivity.
  - destruct c; try discriminate; cbn [cpre core_fwd] in *; inversion Hf; subst; cbn [snd]; try exact Hs.
    rewrite Hp in Hs. discriminate.
Qed.
Lemma osw_chain cs : forall k k', chain_cpre k cs -> core_fwds k cs = Ok k' -> osw k = true -> osw k' = true.
Proof. exact (crun_inv cpre _ osw_step cs). Qed.

Lemma state_ext (a b : state) :
  height a = height b -> funding_height a = funding_height b -> fo a = fo b -> dsh a = dsh b ->
  mutual_h a = mutual_h b -> unilateral_h a = unilateral_h b -> clo a = clo b ->
  closing_swept_h a = closing_swept_h b -> our_swept_h a = our_swept_h b -> saw_block a = saw_block b -> a = b.
Proof. destruct a, b; cbn; intros; subst; reflexivity. Qed.

(** a consequence of [mfw_fold]; nothing in the development uses it *)
Corollary mfw_some_inv h cs : forall m,
  fold_left (fun m c => mfw1 h c m) cs m <> None -> m <> None \/ existsb is_mutual cs = true.
Proof. intros m. rewrite mfw_fold. destruct (existsb is_mutual cs); auto. Qed.

(** the invariant of a monitor that has connected a consistent chain spending [S], with ids [T] *)
Record MInv (S : list outpoint) (T : list N) (m : mon) : Prop := {
  M_k : KInv g S T (core_of (m_state m));
  M_loc : loc_inv (m_state m);
  M_dsh : forall x, dsh (m_state m) = Some x ->
          x <= height (m_state m) /\ exists i, In i (finputs g) /\ In i S;
  M_mut : mutual_h (m_state m) <> None -> In F S;
  M_swc : is_closing_swept (m_state m) = false -> closing_swept_h (m_state m) = None;
  M_swo : is_our_swept (m_state m) = false -> our_swept_h (m_state m) = None;
  M_Ws : osorted (m_watches m);
  M_Ss : osorted (m_seen m);
  M_W : forall w, In w (m_watches m) -> In w (finputs g) \/ In (fst w) T;
  M_want : forall o, In o (wanted g (core_of (m_state m))) -> ~ In o S -> In o (m_watches m);
  M_seen : forall o, In o (m_seen m) -> In o S
}.

Definition bump (s : state) : state := set_height (set_saw s true) (height s + 1).
Definition sweep_add (s1 s2 : state) : state :=
  let s3 := if negb (is_closing_swept s1) && is_closing_swept s2 then set_csh s2 (Some (height s2)) else s2 in
  if negb (is_our_swept s1) && is_our_swept s3 then set_osh s3 (Some (height s3)) else s3.
Definition sweep_rm (s0 s' : state) : state :=
  let s3 := if is_closing_swept s0 && negb (is_closing_swept s') then set_csh s' None else s' in
  if is_our_swept s0 && negb (is_our_swept s3) then set_osh s3 None else s3.

Lemma sweep_add_eq s1 s2 : sweep_add s1 s2 =
  set_osh (set_csh s2 (if negb (is_closing_swept s1) && is_closing_swept s2 then Some (height s2) else closing_swept_h s2))
          (if negb (is_our_swept s1) && is_our_swept s2 then Some (height s2) else our_swept_h s2).
Proof.
  unfold sweep_add. destruct (negb (is_closing_swept s1) && is_closing_swept s2);
    [change (is_our_swept (set_csh s2 (Some (height s2)))) with (is_our_swept s2)|];
    destruct (negb (is_our_swept s1) && is_our_swept s2); destruct s2; reflexivity.
Qed.
Lemma sweep_rm_eq s0 s' : sweep_rm s0 s' =
  set_osh (set_csh s' (if is_closing_swept s0 && negb (is_closing_swept s') then None else closing_swept_h s'))
          (if is_our_swept s0 && negb (is_our_swept s') then None else our_swept_h s').
Proof.
  unfold sweep_rm. destruct (is_closing_swept s0 && negb (is_closing_swept s'));
    [change (is_our_swept (set_csh s' None)) with (is_our_swept s')|];
    destruct (is_our_swept s0 && negb (is_our_swept s')); destruct s'; reflexivity.
Qed.

(** The three [_fields] lemmas: [sweep_add_eq], [sweep_rm_eq] and the computation of [bump], field by field for the
    reader; nothing in the development uses them *)
Corollary sweep_add_fields s1 s2 :
  let s4 := sweep_add s1 s2 in
  height s4 = height s2 /\ funding_height s4 = funding_height s2 /\ fo s4 = fo s2 /\ dsh s4 = dsh s2
  /\ mutual_h s4 = mutual_h s2 /\ unilateral_h s4 = unilateral_h s2 /\ clo s4 = clo s2 /\ saw_block s4 = saw_block s2
  /\ closing_swept_h s4 = (if negb (is_closing_swept s1) && is_closing_swept s2 then Some (height s2) else closing_swept_h s2)
  /\ our_swept_h s4 = (if negb (is_our_swept s1) && is_our_swept s2 then Some (height s2) else our_swept_h s2).
Proof. cbv zeta. rewrite sweep_add_eq. repeat split. Qed.
Corollary sweep_rm_fields s0 s' :
  let s4 := sweep_rm s0 s' in
  height s4 = height s' /\ funding_height s4 = funding_height s' /\ fo s4 = fo s' /\ dsh s4 = dsh s'
  /\ mutual_h s4 = mutual_h s' /\ unilateral_h s4 = unilateral_h s' /\ clo s4 = clo s' /\ saw_block s4 = saw_block s'
  /\ closing_swept_h s4 = (if is_closing_swept s0 && negb (is_closing_swept s') then None else closing_swept_h s')
  /\ our_swept_h s4 = (if is_our_swept s0 && negb (is_our_swept s') then None else our_swept_h s').
Proof. cbv zeta. rewrite sweep_rm_eq. repeat split. Qed.

Lemma bump_fields s :
  core_of (bump s) = core_of s /\ height (bump s) = height s + 1 /\ dsh (bump s) = dsh s /\ mutual_h (bump s) = mutual_h s
  /\ funding_height (bump s) = funding_height s /\ unilateral_h (bump s) = unilateral_h s
  /\ closing_swept_h (bump s) = closing_swept_h s /\ our_swept_h (bump s) = our_swept_h s /\ saw_block (bump s) = true
  /\ is_closing_swept (bump s) = is_closing_swept s /\ is_our_swept (bump s) = is_our_swept s.
Proof. repeat split. Qed.

Lemma add_block_inv s b s4 A R : add_block g s b = Ok (s4, A, R) ->
  exists chs s2, decode_block g (core_of s) b = Ok chs /\ height s < U32MAX
    /\ apply_all apply_forward (bump s) chs = Ok (s2, A, R) /\ s4 = sweep_add (bump s) s2.
Proof.
  unfold add_block. intros H. binv H as chs E.
  destruct (U32MAX <=? height s) eqn:Eh; [discriminate|]. apply N.leb_gt in Eh.
  binv H as x E2. destruct x as [[s2 A'] R']. inversion H; subst.
  exists chs, s2. repeat split; auto.
Qed.

Lemma is_closing_swept_csw s : is_closing_swept s = csw (core_of s).
Proof. reflexivity. Qed.
Lemma is_our_swept_osw s : is_our_swept s = osw (core_of s).
Proof. reflexivity. Qed.

Lemma loc_inv_bump s : loc_inv s -> loc_inv (bump s).
Proof. exact (fun H => H). Qed.

Lemma eqm_core a b : eqm a b -> core_of a = core_of b.
Proof. intros (_ & _ & E3 & _ & E5 & _). unfold core_of. rewrite E3, E5. reflexivity. Qed.

(** the state [s4] after connecting, on [s], a block with the changes [chs]; [s2] is the state
    between the forward pass and the update of the swept heights *)
Record add_run (s : state) (chs : list change) (s2 s4 : state) : Prop := {
  ar_eqm : eqm s4 s2;
  ar_core : core_fwds (core_of s) chs = Ok (core_of s2);
  ar_height : height s4 = height s + 1;
  ar_dsh : dsh s4 = fold_left (fun d c => dfw1 (height s + 1) c d) chs (dsh s);
  ar_mut : mutual_h s4 = if existsb is_mutual chs then Some (height s + 1) else mutual_h s;
  ar_csh : closing_swept_h s4 =
           if negb (csw (core_of s)) && csw (core_of s2) then Some (height s + 1) else closing_swept_h s;
  ar_osh : our_swept_h s4 =
           if negb (osw (core_of s)) && osw (core_of s2) then Some (height s + 1) else our_swept_h s;
  ar_saw : saw_block s4 = true
}.

Lemma sweep_add_run s chs s2 A R :
  apply_all apply_forward (bump s) chs = Ok (s2, A, R) -> add_run s chs s2 (sweep_add (bump s) s2).
Proof.
  intros Ha. destruct (apply_all_fwd _ _ _ _ _ Ha) as [P0 P3 P1 P2 P4 P5 P6]. rewrite sweep_add_eq.
  constructor; cbn [height dsh mutual_h closing_swept_h our_swept_h saw_block set_osh set_csh].
  - unfold eqm. cbn. repeat split; reflexivity.
  - exact P0.
  - exact P3.
  - rewrite P1. reflexivity.
  - rewrite P2. apply mfw_fold.
  - rewrite P3, P4. reflexivity.
  - rewrite P3, P5. reflexivity.
  - exact P6.
Qed.

Record added (S : list outpoint) (T : list N) (m : mon) (b : block)
       (chs : list change) (s2 : state) (A R : list outpoint) : Prop := {
  ad_steps : steps g (core_of (m_state m)) b chs (core_of s2);
  ad_chain : chain_ok g (ins_of b) (tids_of b) (core_of (m_state m)) chs;
  ad_K : KInv g (spent_after S b) (tids_after T b) (core_of s2);
  ad_adds : forall a, In a A -> In (fst a) (tids_of b) /\ ~ In a (finputs g);
  ad_rems : forall r, In r R -> In r (ins_of b) /\ (In r (wanted g (core_of (m_state m))) \/ In r A);
  ad_want : forall o, In o (wanted g (core_of s2)) -> In o (wanted g (core_of (m_state m))) \/ In o A;
  ad_in : forall c, In c chs -> exists kc, cok g (ins_of b) (tids_of b) kc c /\ (fst kc = None \/ fst kc = Some F);
  ad_state : add_run (m_state m) chs s2 (sweep_add (bump (m_state m)) s2);
  ad_loc : loc_inv s2;
  ad_bwd : forall s1', eqm s1' s2 -> exists s' A' R',
      apply_all (apply_backward repaired) s1' (rev chs) = Ok (s', A', R') /\ eqm s' (bump (m_state m))
      /\ bwd_rest (rev chs) s1' s' /\ (forall o, In o A' <-> In o A) /\ (forall o, In o R' <-> In o R)
}.

Lemma add_setup S T m b m' :
  MInv S T m -> txs_ok g S T b = true -> madd g m b = Ok m' ->
  exists chs s2 A R, added S T m b chs s2 A R
    /\ m' = mkmon (sweep_add (bump (m_state m)) s2) (odiff (ounion (m_watches m) A) R) (ounion (m_seen m) R).
Proof.
  intros HM Hok H. unfold madd in H. binv H as x E. destruct x as [[s4 A] R]. inversion H; subst. clear H.
  destruct (add_block_inv _ _ _ _ _ E) as [chs [s2 (Hd & Hh & Ha & ->)]].
  pose proof (sweep_add_run _ _ _ _ _ Ha) as Hrun. pose proof (ar_core _ _ _ _ Hrun) as Hfw.
  apply decode_block_ok in Hd. destruct Hd as [kx Hst].
  assert (Hkx : core_of s2 = kx) by (pose proof (steps_fwds _ _ _ _ _ Hst); congruence).
  subst kx. destruct (block_spec g b S T _ _ _ (M_k _ _ _ HM) Hok Hst) as [Hch HK].
  pose proof (apply_all_fwd_deltas _ _ _ _ _ Ha) as Hdel. change (core_of (bump (m_state m))) with (core_of (m_state m)) in Hdel.
  pose proof (deltas_spec _ _ chs _ _ Hch Hfw) as HD. rewrite <- Hdel in HD. destruct HD as (D1 & D2 & D3).
  destruct (fwd_bwd_all repaired chs eq_refl (bump (m_state m)) (chain_ok_cpre g _ _ _ _ Hch) (loc_inv_bump _ (M_loc _ _ _ HM)))
    as [s2' [A' [R' (Ha' & Hl2 & Hb)]]].
  rewrite Ha in Ha'. inversion Ha'; subst s2' A' R'. clear Ha'.
  exists chs, s2, A, R. split; [|reflexivity]. constructor; auto.
  intros c Hc. destruct (chain_ok_at _ _ chs _ _ c Hch Hfw Hc) as (kc & Hk & Hfst).
  exists kc. split; [exact Hk|]. apply Hfst.
  destruct (K_fo _ _ _ _ (M_k _ _ _ HM)) as [H | [H _]]; auto.
Qed.

Lemma added_fc S T m b chs s2 A R o : added S T m b chs s2 A R -> In (FundingConfirmed o) chs -> o = F.
Proof. intros Had Hc. destruct (ad_in _ _ _ _ _ _ _ _ Had _ Hc) as [kc [(_ & Hj & _) _]]. apply Hj. Qed.
Lemma added_fis S T m b chs s2 A R : added S T m b chs s2 A R -> existsb is_fis chs = true ->
  exists i, In i (finputs g) /\ In i (ins_of b).
Proof.
  intros Had E. apply existsb_exists in E. destruct E as [c [Hc Hfis]]. destruct c; try discriminate.
  destruct (ad_in _ _ _ _ _ _ _ _ Had _ Hc) as [kc [(_ & Hj & Hi & _) _]]. exists o. split; [exact Hj | apply Hi; left; reflexivity].
Qed.
Lemma added_mutual S T m b chs s2 A R : added S T m b chs s2 A R -> existsb is_mutual chs = true -> In F (ins_of b).
Proof.
  intros Had E. apply existsb_exists in E. destruct E as [c [Hc Hmu]]. destruct c; try discriminate.
  destruct (ad_in _ _ _ _ _ _ _ _ Had _ Hc) as [kc [(_ & Hj & Hi & _) [E | E]]]; cbn [cjust] in Hj; [congruence|].
  rewrite Hj in E. inversion E; subst. apply Hi. left; reflexivity.
Qed.

Theorem add_preserves S T m b m' :
  MInv S T m -> txs_ok g S T b = true -> madd g m b = Ok m' ->
  MInv (spent_after S b) (tids_after T b) m'.
Proof.
  intros HM Hok Hadd. destruct (add_setup _ _ _ _ _ HM Hok Hadd) as (chs & s2 & A & R & Had & ->).
  pose proof Had as [_ Hch HK D1 D2 D3 _ [Heq Hfw E3 E1 E2 E4 E5 _] Hl2 _].
  pose proof (chain_ok_cpre g _ _ _ _ Hch) as Hcp. pose proof (eqm_core _ _ Heq) as Hc4.
  destruct (spent_after_incl b S) as [HS1 HS2]. destruct (tids_after_incl b T) as [HT1 HT2].
  set (s4 := sweep_add (bump (m_state m)) s2) in *.
  constructor; cbn [m_state m_watches m_seen].
  - rewrite Hc4. exact HK.
  - destruct Heq as (_ & F2 & F3 & F6 & F7 & _). unfold loc_inv in *. rewrite F2, F3, F6, F7. exact Hl2.
  - intros x Hx. rewrite E1 in Hx. rewrite E3. destruct (dfw_some_inv _ _ _ _ Hx) as [E | [-> E]].
    + destruct (M_dsh _ _ _ HM x E) as [G1 [i [G2 G3]]]. split; [exact (N.le_trans _ _ _ G1 (N.le_add_r _ 1))|]. exists i. auto.
    + split; [apply N.le_refl|]. destruct (added_fis _ _ _ _ _ _ _ _ Had E) as [i [G1 G2]]. exists i. auto.
  - intros Hn. rewrite E2 in Hn.
    destruct (existsb is_mutual chs) eqn:E; [apply HS2, (added_mutual _ _ _ _ _ _ _ _ Had E) | apply HS1, (M_mut _ _ _ HM), Hn].
  - (* not swept after the block, so not before: the height is carried over *)
    intros Hq. rewrite is_closing_swept_csw, Hc4 in Hq. rewrite E4, Hq, andb_false_r.
    apply (M_swc _ _ _ HM). rewrite is_closing_swept_csw. destruct (csw (core_of (m_state m))) eqn:Ep; [|reflexivity].
    rewrite (csw_chain _ _ _ Hcp Hfw Ep) in Hq. discriminate.
  - intros Hq. rewrite is_our_swept_osw, Hc4 in Hq. rewrite E5, Hq, andb_false_r.
    apply (M_swo _ _ _ HM). rewrite is_our_swept_osw. destruct (osw (core_of (m_state m))) eqn:Ep; [|reflexivity].
    rewrite (osw_chain _ _ _ Hcp Hfw Ep) in Hq. discriminate.
  - apply odiff_sorted, ounion_sorted. exact (M_Ws _ _ _ HM).
  - apply ounion_sorted. exact (M_Ss _ _ _ HM).
  - intros w Hw. apply odiff_in in Hw. destruct Hw as [Hw _]. apply ounion_in in Hw. destruct Hw as [Hw | Hw].
    + destruct (M_W _ _ _ HM w Hw) as [G | G]; [left; exact G | right; apply HT1; exact G].
    + right. apply HT2. apply (D1 w Hw).
  - intros o Ho Hns. rewrite Hc4 in Ho. apply odiff_in. split.
    + apply ounion_in. destruct (D3 o Ho) as [G | G]; [left | right; exact G].
      apply (M_want _ _ _ HM o G). intros Hs. apply Hns. apply HS1. exact Hs.
    + intros Hr. apply Hns. apply HS2. apply (D2 o Hr).
  - intros o Ho. apply ounion_in in Ho. destruct Ho as [Ho | Ho]; [apply HS1; apply (M_seen _ _ _ HM); exact Ho | apply HS2; apply (D2 o Ho)].
Qed.

Lemma remove_block_ok s b chs s' A R :
  decode_block g (core_of s) b = Ok chs ->
  apply_all (apply_backward repaired) (set_saw s true) (rev chs) = Ok (s', A, R) ->
  height s' <> 0 ->
  remove_block repaired g s b = Ok (set_height (sweep_rm (set_saw s true) s') (height s' - 1), A, R).
Proof.
  intros Hd Ha Hh. unfold remove_block. rewrite Hd. cbn [bind rev_order repaired]. rewrite Ha. cbn [bind].
  fold (sweep_rm (set_saw s true) s').
  assert (E : height (sweep_rm (set_saw s true) s') = height s') by (rewrite sweep_rm_eq; reflexivity).
  apply N.eqb_neq in Hh. rewrite E, Hh. reflexivity.
Qed.

(** the state after disconnecting the block again: the backward pass has restored everything
    but the four per-block heights, which are restored because none of them was set before by an
    event that the block repeats *)
Lemma undo_state s chs s2 s4 s' :
  add_run s chs s2 s4 -> eqm s' (bump s) -> bwd_rest (rev chs) (set_saw s4 true) s' ->
  dsh s <> Some (height s + 1) -> (existsb is_fc chs = true -> dsh s = None) ->
  (existsb is_mutual chs = true -> mutual_h s = None) ->
  (is_closing_swept s = false -> closing_swept_h s = None) -> (is_our_swept s = false -> our_swept_h s = None) ->
  set_height (sweep_rm (set_saw s4 true) s') (height s' - 1) = set_saw s true.
Proof.
  intros [Heq _ E3 E1 E2 E4 E5 _] (F1 & F2 & F3 & F4 & F5 & F6) (Q1 & Q2 & Q4 & Q5) Hd Hfc Hm Hc Ho.
  pose proof (eqm_core _ _ Heq) as Hc4.
  assert (Hcs' : core_of s' = core_of s) by (unfold core_of; rewrite F3, F5; reflexivity).
  rewrite sweep_rm_eq. change (is_closing_swept (set_saw s4 true)) with (csw (core_of s4)).
  change (is_our_swept (set_saw s4 true)) with (osw (core_of s4)). rewrite (is_closing_swept_csw s'), (is_our_swept_osw s'), Hc4, Hcs'.
  apply state_ext; cbn [height funding_height fo dsh mutual_h unilateral_h clo closing_swept_h our_swept_h saw_block set_height set_saw set_osh set_csh];
    try assumption.
  - rewrite F1. cbn [bump height set_height]. apply N.add_sub.
  - rewrite Q1. cbn [height dsh set_saw]. rewrite E3, E1. apply dsh_undo; assumption.
  - rewrite Q2. cbn [mutual_h set_saw]. rewrite E2. apply mutual_undo. exact Hm.
  - rewrite Q4. cbn [closing_swept_h set_saw]. rewrite E4.
    destruct (csw (core_of s)) eqn:Ep, (csw (core_of s2)); cbn [negb andb]; try reflexivity. symmetry. exact (Hc Ep).
  - rewrite Q5. cbn [our_swept_h set_saw]. rewrite E5.
    destruct (osw (core_of s)) eqn:Ep, (osw (core_of s2)); cbn [negb andb]; try reflexivity. symmetry. exact (Ho Ep).
Qed.

Theorem add_remove S T m b m' :
  MInv S T m -> txs_ok g S T b = true -> madd g m b = Ok m' ->
  mremove repaired g m' b = Ok (norm m).
Proof.
  intros HM Hok Hadd. destruct (add_setup _ _ _ _ _ HM Hok Hadd) as (chs & s2 & A & R & Had & ->).
  pose proof Had as [Hst Hch _ D1 D2 D3 _ Hrun _ Hb]. pose proof (ar_eqm _ _ _ _ Hrun) as Heq.
  pose proof (fun o => added_fc _ _ _ _ _ _ _ _ o Had) as Hfc.
  set (s := m_state m) in *. set (s4 := sweep_add (bump s) s2) in *.
  (* the block decodes to the same changes on the state after it *)
  assert (Hdec : decode_block g (core_of s4) b = Ok chs).
  { rewrite (eqm_core _ _ Heq). apply decode_block_ok.
    eapply decode_stable; [exact Hst | eapply txs_ok_fresh; exact Hok | apply sim_init; [eapply chain_ok_cpre; exact Hch | exact Hfc | exact (ar_core _ _ _ _ Hrun)]]. }
  destruct (Hb (set_saw s4 true)) as [s' [A' [R' (Hbw & He & Hrest & HA' & HR')]]].
  { destruct Heq as (? & ? & ? & ? & ? & E6). rewrite (ar_saw _ _ _ _ Hrun) in E6. repeat split; assumption. }
  assert (Hhs' : height s' <> 0) by (rewrite (proj1 He); cbn [bump height set_height]; rewrite N.add_1_r; apply N.neq_succ_0).
  unfold mremove. cbn [m_state m_watches m_seen].
  rewrite (remove_block_ok s4 b chs s' A' R' Hdec Hbw Hhs'). cbn [bind]. unfold norm. fold s.
  f_equal. f_equal.
  - apply (undo_state s chs s2 s4 s' Hrun He Hrest); [| | |exact (M_swc _ _ _ HM) | exact (M_swo _ _ _ HM)].
    + (* a double-spend height recorded earlier is below the new height *)
      intros E. destruct (M_dsh _ _ _ HM _ E) as [G _]. fold s in G. rewrite N.add_1_r in G. exact (N.nle_succ_diag_l _ G).
    + (* the funding transaction spends every funding input, so none was spent before *)
      intros Efc. apply existsb_exists in Efc. destruct Efc as [c [Hc Hisfc]]. destruct c; try discriminate.
      destruct (dsh s) as [x|] eqn:Ed; [|reflexivity]. exfalso.
      destruct (M_dsh _ _ _ HM x Ed) as [_ [i [Hi1 Hi2]]].
      destruct (steps_tid _ _ _ _ _ _ (fst o) Hst Hc eq_refl) as [t [Ht Etid]].
      destruct (txs_ok_in _ _ _ _ Hok Ht) as [S1 [T1 (I1 & _ & I3)]].
      pose proof (Hfc o Hc) as Eo. subst o. cbn [fst fund] in Etid.
      apply (h_fresh _ _ _ _ I3 i); [apply (h_fund _ _ _ _ I3); [symmetry; exact Etid | exact Hi1] | apply I1; exact Hi2].
    + (* a mutual close spends the funding outpoint, so there was none before *)
      intros Em. destruct (mutual_h s) eqn:Emh; [|reflexivity]. exfalso.
      apply (txs_ok_ins_fresh _ _ _ _ Hok (added_mutual _ _ _ _ _ _ _ _ Had Em)). apply (M_mut _ _ _ HM). fold s. rewrite Emh. discriminate.
  - (* the watches: an add is new to them, a remove was wanted or has just been added *)
    apply (watch_roundtrip _ _ _ _ _ (M_Ws _ _ _ HM) HA' HR').
    + intros x Hx Hw. destruct (D1 x Hx) as [Ht Hnf]. destruct (M_W _ _ _ HM x Hw) as [G | G]; [contradiction|].
      apply in_map_iff in Ht. destruct Ht as [t [Et Ht]].
      destruct (txs_ok_in _ _ _ _ Hok Ht) as [S1 [T1 (_ & I2 & I3)]]. apply (h_tid _ _ _ _ I3). rewrite Et. apply I2. exact G.
    + intros x Hr. destruct (D2 x Hr) as [Hi [Hw | Hx]]; [left | right; exact Hx].
      apply (M_want _ _ _ HM x Hw). apply (txs_ok_ins_fresh _ _ _ _ Hok Hi).
  - (* the seen set: a remove is an input of the block, so not seen before *)
    apply (seen_roundtrip _ _ _ (M_Ss _ _ _ HM) HR'). intros x Hr Hs.
    apply (txs_ok_ins_fresh _ _ _ _ Hok (proj1 (D2 x Hr))). apply (M_seen _ _ _ HM). exact Hs.
Qed.

Lemma MInv_init h0 : MInv [] [] (init_mon g h0).
Proof.
  constructor; cbn [init_mon m_state m_watches m_seen init_state core_of fo clo dsh mutual_h closing_swept_h our_swept_h].
  - apply KInv_init.
  - unfold loc_inv. cbn. auto.
  - intros x Hx. discriminate.
  - intros H. contradiction.
  - reflexivity.
  - reflexivity.
  - apply ounion_sorted, osorted_nil.
  - apply osorted_nil.
  - intros w Hw. apply ounion_in in Hw. destruct Hw as [[] | Hw]. left; exact Hw.
  - intros o Ho _. apply in_wanted in Ho. cbn [fst snd] in Ho. destruct Ho as [Ho | [Ho | [cl [Ho _]]]]; try discriminate.
    apply ounion_in. right. exact Ho.
  - intros o [].
Qed.

Lemma txs_ok_app a : forall S T b,
  txs_ok g S T (a ++ b) = txs_ok g S T a && txs_ok g (spent_after S a) (tids_after T a) b.
Proof.
  induction a as [|t r IH]; intros S T b; cbn [app txs_ok spent_after tids_after fold_left]; [reflexivity|].
  rewrite IH. unfold spent_after, tids_after. rewrite andb_assoc. reflexivity.
Qed.
Lemma spent_after_app a b S : spent_after S (a ++ b) = spent_after (spent_after S a) b.
Proof. unfold spent_after. apply fold_left_app. Qed.
Lemma tids_after_app a b T : tids_after T (a ++ b) = tids_after (tids_after T a) b.
Proof. unfold tids_after. apply fold_left_app. Qed.

Lemma run_adds_snoc m chain b :
  run_adds g m (chain ++ [b]) = (m1 <- run_adds g m chain ;; madd g m1 b).
Proof.
  unfold run_adds. revert m. induction chain as [|c r IH]; intros m; cbn [app map run mstep].
  - cbn [bind]. destruct (madd g m b); reflexivity.
  - destruct (madd g m c) as [m1|]; cbn [bind]; [apply IH | reflexivity].
Qed.

Lemma run_adds_inv chain : forall S T m m',
  MInv S T m -> txs_ok g S T (concat chain) = true -> run_adds g m chain = Ok m' ->
  MInv (spent_after S (concat chain)) (tids_after T (concat chain)) m'.
Proof.
  unfold run_adds. induction chain as [|b r IH]; intros S T m m' HM Hok Hr; cbn [concat map run mstep] in *.
  - inversion Hr; subst. exact HM.
  - binv Hr as m1 E. rewrite txs_ok_app in Hok. apply andb_true_iff in Hok. destruct Hok as [H1 H2].
    rewrite spent_after_app, tids_after_app. eapply IH; [|exact H2 | exact Hr]. eapply add_preserves; eassumption.
Qed.

Lemma consistent_snoc chain b : consistent g (chain ++ [b]) = true ->
  consistent g chain = true /\ txs_ok g (spent_after [] (concat chain)) (tids_after [] (concat chain)) b = true.
Proof.
  unfold consistent. rewrite concat_app. cbn [concat]. rewrite app_nil_r, txs_ok_app. apply andb_true_iff.
Qed.

Theorem undo h0 chain b m m' :
  consistent g (chain ++ [b]) = true ->
  run_adds g (init_mon g h0) chain = Ok m -> madd g m b = Ok m' ->
  mremove repaired g m' b = Ok (norm m).
Proof.
  intros Hc Hr Ha. destruct (consistent_snoc _ _ Hc) as [Hc1 Hc2].
  eapply add_remove; [|exact Hc2 | exact Ha]. eapply run_adds_inv; [apply MInv_init | exact Hc1 | exact Hr].
Qed.

(** [norm] only sets saw_block, which [madd] ([bump]) and [mremove] ([set_saw _ true]) overwrite before reading
    it: by computation *)
Lemma madd_norm m b : madd g (norm m) b = madd g m b.
Proof. reflexivity. Qed.
Lemma mremove_norm fx m b : mremove fx g (norm m) b = mremove fx g m b.
Proof. reflexivity. Qed.
Lemma norm_idem m : norm (norm m) = norm m.
Proof. reflexivity. Qed.

Lemma madd_run m b m' : madd g m b = Ok m' -> exists chs s2, add_run (m_state m) chs s2 (m_state m').
Proof.
  unfold madd. intros H. binv H as x E. destruct x as [[s4 A] R]. inversion H; subst. cbn [m_state].
  destruct (add_block_inv _ _ _ _ _ E) as [chs [s2 (_ & _ & Ha & ->)]]. exists chs, s2. exact (sweep_add_run _ _ _ _ _ Ha).
Qed.
Lemma madd_height m b m' : madd g m b = Ok m' -> height (m_state m') = height (m_state m) + 1.
Proof. intros H. destruct (madd_run _ _ _ H) as (chs & s2 & Hr). exact (ar_height _ _ _ _ Hr). Qed.
Lemma run_adds_height chain : forall m m', run_adds g m chain = Ok m' ->
  height (m_state m') = height (m_state m) + N.of_nat (length chain).
Proof.
  unfold run_adds. induction chain as [|b r IH]; intros m m' H; cbn [map run mstep length] in *.
  - inversion H; subst. lia.
  - binv H as m1 E. rewrite (IH _ _ H), (madd_height _ _ _ E). lia.
Qed.

Theorem madd_total S T m b :
  MInv S T m -> txs_ok g S T b = true -> forallb (tx_wf g) b = true -> height (m_state m) < U32MAX ->
  exists m', madd g m b = Ok m'.
Proof.
  intros HM Hok Hwf Hh.
  destruct (steps_total g b S T _ (M_k _ _ _ HM) Hok Hwf) as [chs [kx Hst]].
  destruct (block_spec g b S T _ _ _ (M_k _ _ _ HM) Hok Hst) as [Hch _].
  destruct (fwd_bwd_all repaired chs eq_refl (bump (m_state m))) as [s2 [A [R (Ha & _)]]].
  { eapply chain_ok_cpre. exact Hch. }
  { apply loc_inv_bump. exact (M_loc _ _ _ HM). }
  unfold madd, add_block.
  assert (Hd : decode_block g (core_of (m_state m)) b = Ok chs) by (apply decode_block_ok; exists kx; exact Hst).
  rewrite Hd. cbn [bind]. apply N.leb_gt in Hh. rewrite Hh. fold (bump (m_state m)). rewrite Ha. cbn [bind]. eexists; reflexivity.
Qed.

Definition Reach (h0 : N) (tf : list block) (m : mon) : Prop :=
  consistent g (rev tf) = true /\ exists m0, run_adds g (init_mon g h0) (rev tf) = Ok m0 /\ norm m0 = norm m.

Lemma chain_wf_single b : chain_wf g [b] = forallb (tx_wf g) b.
Proof. unfold chain_wf. cbn [concat]. rewrite app_nil_r. reflexivity. Qed.

(** one delivery keeps [Reach]: a connection runs and extends the chain, a disconnection of the tip
    runs and gives back the monitor of the chain below it *)
Lemma reach_add h0 tf m b :
  Reach h0 tf m -> consistent g (rev (b :: tf)) = true -> chain_wf g [b] = true ->
  h0 + N.of_nat (length tf) < U32MAX -> exists m1, madd g m b = Ok m1 /\ Reach h0 (b :: tf) m1.
Proof.
  intros [Hcon [m0 [Hr0 Hn0]]] Hc Hwf Hb. cbn [rev] in Hc. destruct (consistent_snoc _ _ Hc) as [_ Hc2].
  pose proof (run_adds_inv _ _ _ _ _ (MInv_init h0) Hcon Hr0) as HM0.
  assert (Hh0 : height (m_state m0) < U32MAX).
  { rewrite (run_adds_height _ _ _ Hr0). cbn [init_mon m_state init_state height]. rewrite rev_length. exact Hb. }
  rewrite chain_wf_single in Hwf. destruct (madd_total _ _ _ _ HM0 Hc2 Hwf Hh0) as [m1 Hm1].
  exists m1. split; [rewrite <- madd_norm, <- Hn0, madd_norm; exact Hm1|].
  split; [exact Hc|]. exists m1. split; [|reflexivity]. cbn [rev]. rewrite run_adds_snoc, Hr0. exact Hm1.
Qed.
Lemma reach_remove h0 tf m b :
  Reach h0 (b :: tf) m -> exists mp, mremove repaired g m b = Ok (norm mp) /\ Reach h0 tf (norm mp).
Proof.
  intros [Hcon [m0 [Hr0 Hn0]]]. cbn [rev] in Hcon, Hr0. rewrite run_adds_snoc in Hr0. binv Hr0 as mp Hrp.
  exists mp. split; [rewrite <- mremove_norm, <- Hn0, mremove_norm; exact (undo h0 _ _ _ _ Hcon Hrp Hr0)|].
  split; [destruct (consistent_snoc _ _ Hcon) as [H _]; exact H|]. exists mp. split; [exact Hrp | reflexivity].
Qed.

Theorem history h0 ops : forall tf m,
  Reach h0 tf m -> hist_ok g tf ops -> h0 + N.of_nat (length tf) + count_adds ops <= U32MAX ->
  exists m2, run repaired g m ops = Ok m2 /\ Reach h0 (survivors tf ops) m2.
Proof.
  induction ops as [|o r IH]; intros tf m HR Hok Hb.
  - exists m. split; [reflexivity | exact HR].
  - destruct o as [b | b]; cbn [hist_ok run mstep survivors count_adds] in *.
    + destruct Hok as (Hc & Hwf & Hok). destruct (reach_add h0 tf m b HR Hc Hwf) as [m1 [-> HR1]]; [lia|].
      apply (IH (b :: tf) m1 HR1 Hok). cbn [length]. lia.
    + destruct tf as [|t rest]; [contradiction|]. destruct Hok as [-> Hok].
      destruct (reach_remove h0 rest m b HR) as [mp [-> HRp]]. apply (IH rest (norm mp) HRp Hok). cbn [length] in Hb. lia.
Qed.

End Main.

Theorem best_chain_thm g h0 ops :
  hist_ok g [] ops -> h0 + count_adds ops <= U32MAX ->
  exists m m', run repaired g (init_mon g h0) ops = Ok m
    /\ run_adds g (init_mon g h0) (best_chain ops) = Ok m' /\ norm m = norm m'.
Proof.
  intros Hok Hb.
  destruct (history g h0 ops [] (init_mon g h0)) as [m2 [Hr [_ [m0 [Hr0 Hn]]]]].
  - split; [reflexivity|]. exists (init_mon g h0). split; reflexivity.
  - exact Hok.
  - cbn [length]. lia.
  - exists m2, m0. split; [exact Hr|]. split; [exact Hr0 | symmetry; exact Hn].
Qed.

Theorem no_abort_thm g h0 ops :
  hist_ok g [] ops -> h0 + count_adds ops <= U32MAX -> run repaired g (init_mon g h0) ops <> Abort.
Proof.
  intros Hok Hb. destruct (best_chain_thm g h0 ops Hok Hb) as [m [m' [H _]]]. rewrite H. discriminate.
Qed.

(** equal up to the sync flag means equal in everything a channel's view consists of *)
Lemma norm_inj m m' : norm m = norm m' ->
  m = mkmon (set_saw (m_state m') (saw_block (m_state m))) (m_watches m') (m_seen m').
Proof. destruct m as [[] W Sn], m' as [[] W' Sn']. intros H. inversion H; subst. reflexivity. Qed.

Theorem norm_views m m' : norm m = norm m' ->
  funding_depth (m_state m) = funding_depth (m_state m')
  /\ double_spent_depth (m_state m) = double_spent_depth (m_state m')
  /\ closing_depth (m_state m) = closing_depth (m_state m')
  /\ (forall forgot, is_done (m_state m) forgot = is_done (m_state m') forgot)
  /\ clo (m_state m) = clo (m_state m')
  /\ closing_swept_h (m_state m) = closing_swept_h (m_state m')
  /\ our_swept_h (m_state m) = our_swept_h (m_state m')
  /\ m_watches m = m_watches m' /\ m_seen m = m_seen m'.
Proof. intros H. rewrite (norm_inj _ _ H). repeat split; reflexivity. Qed.

(** ... including the ChainState handed to the validators, which on every state agrees with
    the monitor's own depth getters wherever at most one kind of close is recorded *)
Theorem norm_chain_state m m' : norm m = norm m' -> chain_state (m_state m) = chain_state (m_state m').
Proof. intros H. rewrite (norm_inj _ _ H). reflexivity. Qed.
Theorem chain_state_getters s :
  (mutual_h s = None \/ unilateral_h s = None) ->
  chain_state s = (height s, funding_depth s, double_spent_depth s, closing_depth s).
Proof.
  unfold chain_state, funding_depth, double_spent_depth, closing_depth.
  intros [H | H]; rewrite H; destruct (mutual_h s), (unilateral_h s); reflexivity.
Qed.

(** the monitor persists everything its behaviour depends on *)
Lemma restore_persist m : restore (persist m) = m.
Proof. destruct m; reflexivity. Qed.
Theorem restarts_transparent fx g rops : forall m, run_r fx g m rops = run fx g m (deliveries rops).
Proof.
  induction rops as [|[o|] r IH]; intros m; cbn [run_r deliveries run].
  - reflexivity.
  - destruct (mstep fx g m o) as [m'|]; cbn [bind]; [apply IH | reflexivity].
  - rewrite restore_persist. apply IH.
Qed.

Definition winv (s : wst) : Prop :=
  w_len s <= w_peak s /\ w_peak s - MAX_REORG_SIZE <= w_len s
  /\ w_rem s = w_len s - (w_peak s - MAX_REORG_SIZE).

Lemma winv_init : winv winit.
Proof. unfold winv, winit. cbn [w_rem w_len w_peak]. lia. Qed.
Lemma winv_next s o : winv s -> winv (fst (wnext s o)).
Proof.
  unfold winv. intros (H1 & H2 & H3). destruct o; cbn [wnext].
  - cbn [fst w_rem w_len w_peak].
    destruct (N.min_spec MAX_REORG_SIZE (w_rem s + 1)) as [[? ->] | [? ->]];
      destruct (N.max_spec (w_peak s) (w_len s + 1)) as [[? ->] | [? ->]]; lia.
  - destruct (w_rem s =? 0) eqn:E; cbn [fst w_rem w_len w_peak]; [auto|]. apply N.eqb_neq in E. lia.
  - cbn [fst]. auto.
Qed.
Lemma winv_run ops : forall s, winv s -> winv (wrun s ops).
Proof. induction ops as [|o r IH]; intros s H; cbn [wrun]; [exact H | apply IH, winv_next, H]. Qed.

(** a disconnection is refused exactly when it would go below the creation height or more
    than MAX_REORG_SIZE blocks below the highest block ever connected *)
Lemma winv_accepts s : winv s ->
  snd (wnext s WRemove) = true <-> (0 < w_len s /\ w_peak s - w_len s < MAX_REORG_SIZE).
Proof.
  unfold winv. intros (H1 & H2 & H3). cbn [wnext].
  destruct (w_rem s =? 0) eqn:E; cbn [snd].
  - apply N.eqb_eq in E. split; [discriminate | lia].
  - apply N.eqb_neq in E. split; [lia | reflexivity].
Qed.
Theorem window_accepts ops :
  let s := wrun winit ops in
  snd (wnext s WRemove) = true <-> (0 < w_len s /\ w_peak s - w_len s < MAX_REORG_SIZE).
Proof. exact (winv_accepts _ (winv_run ops winit winv_init)). Qed.
