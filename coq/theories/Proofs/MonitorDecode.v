(** The push listener in closed form: the changes a transaction produces are a function of
    what the core *recognises* (funding outpoint, closing txid, output indexes, second-level
    outpoints), never of the spent flags.  [dec_tx_eq] ties the threaded listener of
    Model/Monitor.v to [tx_changes] / [asserts_ok]. *)
From VLS Require Import Model.Monitor Proofs.MonitorSets.

Lemma bind_ok {A B} (x : res A) (f : A -> res B) (b : B) :
  bind x f = Ok b -> exists a, x = Ok a /\ f a = Ok b.
Proof. destruct x as [a|]; cbn [bind]; intros H; [exists a; auto | discriminate]. Qed.

Tactic Notation "binv" hyp(H) "as" ident(a) ident(E) :=
  apply bind_ok in H; destruct H as [a [E H]].

(** [core_fwds], [core_bwds] and [add_changes] are this fold *)
Section Mfold.
Context {A B : Type} (f : A -> B -> res A).
Fixpoint mfold (a : A) (l : list B) : res A :=
  match l with [] => Ok a | x :: r => a' <- f a x ;; mfold a' r end.
Lemma mfold_app l1 l2 : forall a, mfold a (l1 ++ l2) = (a' <- mfold a l1 ;; mfold a' l2).
Proof.
  induction l1 as [|x r IH]; intros a; cbn [app mfold bind]; [reflexivity|].
  destruct (f a x); cbn [bind]; [apply IH | reflexivity].
Qed.
End Mfold.

Definition csig (c : closing) : N * option N * list N * list outpoint :=
  (c_txid c, option_map fst (c_our c), map fst (c_htlcs c), map fst (c_second c)).
Definition rsig (k : core) := (fst k, option_map csig (snd k)).

Inductive ckind := KOur | KHtlc | KSecond | KNone.
Definition ckind_cl (cl : closing) (i : outpoint) : ckind :=
  if includes_our cl i then KOur
  else if includes_htlc cl i then KHtlc
  else if includes_second cl i then KSecond else KNone.
Definition ckind_of (k : core) (i : outpoint) : ckind :=
  match snd k with Some cl => ckind_cl cl i | None => KNone end.
Definition fo_hit (k : core) (i : outpoint) : bool :=
  match fst k with Some f => op_eqb i f | None => false end.

Lemma existsb_map {A B} (f : A -> B) (p : B -> bool) l :
  existsb p (map f l) = existsb (fun x => p (f x)) l.
Proof. induction l as [|x r IH]; cbn [map existsb]; [reflexivity | rewrite IH; reflexivity]. Qed.

Definition sig_kind (s : N * option N * list N * list outpoint) (i : outpoint) : ckind :=
  let '(t, o, h, l) := s in
  if (t =? fst i) && match o with Some x => x =? snd i | None => false end then KOur
  else if (t =? fst i) && existsb (fun x => x =? snd i) h then KHtlc
  else if existsb (fun x => op_eqb x i) l then KSecond else KNone.
Lemma ckind_cl_csig cl i : ckind_cl cl i = sig_kind (csig cl) i.
Proof.
  unfold ckind_cl, includes_our, includes_htlc, includes_second, csig, sig_kind. rewrite !existsb_map.
  destruct (c_our cl) as [[a b]|]; reflexivity.
Qed.
Lemma ckind_of_sig k1 k2 i : rsig k1 = rsig k2 -> ckind_of k1 i = ckind_of k2 i.
Proof.
  unfold rsig, ckind_of. intros H. inversion H as [[H1 H2]].
  destruct (snd k1), (snd k2); cbn [option_map] in H2; try discriminate; [|reflexivity].
  rewrite !ckind_cl_csig. congruence.
Qed.
Lemma fo_hit_sig k1 k2 i : rsig k1 = rsig k2 -> fo_hit k1 i = fo_hit k2 i.
Proof. unfold rsig, fo_hit. intros H. inversion H as [[H1 H2]]. rewrite H1. reflexivity. Qed.

Lemma set_first_map {A B} (g : A -> B) (p : A -> bool) (f : A -> A) l l' :
  (forall x, g (f x) = g x) -> set_first p f l = Some l' -> map g l' = map g l.
Proof.
  intros Hg. revert l'. induction l as [|x r IH]; intros l' H; cbn [set_first] in H; [discriminate|].
  destruct (p x).
  - inversion H; subst. cbn [map]. rewrite Hg. reflexivity.
  - destruct (set_first p f r) as [r'|]; [|discriminate]. inversion H; subst. cbn [map]. f_equal. apply IH. reflexivity.
Qed.
Lemma set_first_some {A} (p : A -> bool) (f : A -> A) l :
  existsb p l = true -> exists l', set_first p f l = Some l'.
Proof.
  induction l as [|x r IH]; cbn [existsb set_first]; [discriminate|].
  destruct (p x); cbn [orb]; intros H; [eexists; reflexivity|].
  destruct (IH H) as [r' ->]. eexists; reflexivity.
Qed.
Lemma set_first_none {A} (p : A -> bool) (f : A -> A) l :
  existsb p l = false -> set_first p f l = None.
Proof.
  induction l as [|x r IH]; cbn [existsb set_first]; [reflexivity|].
  destruct (p x); cbn [orb]; intros H; [discriminate|]. rewrite (IH H). reflexivity.
Qed.

Definition sig_step (s : option outpoint * option (N * option N * list N * list outpoint)) (c : change) :=
  match c with
  | FundingConfirmed o => Some (Some o, snd s)
  | FundingInputSpent _ | MutualClose _ _ => Some s
  | UnilateralClose txid _ our htlcs => Some (fst s, Some (txid, our, htlcs, []))
  | OurOutputSpent v =>
      match snd s with Some (_, Some i, _, _) => if i =? v then Some s else None | _ => None end
  | HTLCOutputSpent v slo =>
      match snd s with
      | Some (t, o, h, l) => if existsb (fun x => x =? v) h then Some (fst s, Some (t, o, h, l ++ [slo])) else None
      | None => None
      end
  | SecondLevelSpent o =>
      match snd s with Some (_, _, _, l) => if existsb (fun x => op_eqb x o) l then Some s else None | None => None end
  end.

Lemma csig_new txid our htlcs : csig (new_closing txid our htlcs) = (txid, our, htlcs, []).
Proof.
  unfold csig, new_closing. cbn [c_txid c_our c_htlcs c_second map]. rewrite map_map, map_id.
  destruct our; reflexivity.
Qed.

Lemma core_fwd_sig k c :
  match core_fwd k c with
  | Ok k' => sig_step (rsig k) c = Some (rsig k')
  | Abort => sig_step (rsig k) c = None
  end.
Proof.
  destruct k as [f [cl|]]; destruct c; unfold rsig; cbn [core_fwd with_closing sig_step fst snd option_map bind];
    try reflexivity; try (rewrite csig_new; reflexivity).
  - unfold set_our, csig. destruct (c_our cl) as [[i b]|] eqn:E; [|reflexivity].
    cbn [option_map fst]. destruct (i =? vout); reflexivity.
  - unfold set_htlc, csig. rewrite (existsb_map fst (fun x => x =? vout)).
    destruct (existsb _ (c_htlcs cl)) eqn:E.
    + destruct (set_first_some _ (fun p : N * bool => (fst p, true)) _ E) as [h' Eh]. rewrite Eh. cbn [bind].
      unfold rsig, csig, push_second. cbn. rewrite (set_first_map fst _ (fun p => (fst p, true)) _ _ (fun x => eq_refl) Eh), map_app. reflexivity.
    + rewrite (set_first_none _ _ _ E). reflexivity.
  - unfold set_second, csig. rewrite (existsb_map fst (fun x => op_eqb x o)).
    destruct (existsb _ (c_second cl)) eqn:E.
    + destruct (set_first_some _ (fun p : outpoint * bool => (fst p, true)) _ E) as [l' El]. rewrite El. cbn [bind].
      unfold rsig, csig. cbn. rewrite (set_first_map fst _ (fun p => (fst p, true)) _ _ (fun x => eq_refl) El). reflexivity.
    + rewrite (set_first_none _ _ _ E). reflexivity.
Qed.

Definition flag_change (c : change) : bool :=
  match c with FundingInputSpent _ | OurOutputSpent _ | SecondLevelSpent _ | MutualClose _ _ => true | _ => false end.
Lemma core_fwd_flag_sig k c k' : flag_change c = true -> core_fwd k c = Ok k' -> rsig k' = rsig k.
Proof.
  intros Hc H. pose proof (core_fwd_sig k c) as G. rewrite H in G. destruct c; try discriminate; cbn [sig_step] in G.
  - congruence.
  - congruence.
  - destruct (snd (rsig k)) as [[[[t [i|]] h] l]|]; try discriminate. destruct (i =? vout); congruence.
  - destruct (snd (rsig k)) as [[[[t i] h] l]|]; try discriminate. destruct (existsb _ l); congruence.
Qed.

Fixpoint core_fwds (k : core) (cs : list change) : res core :=
  match cs with [] => Ok k | c :: r => k' <- core_fwd k c ;; core_fwds k' r end.
Fixpoint core_bwds (k : core) (cs : list change) : res core :=
  match cs with [] => Ok k | c :: r => k' <- core_bwd k c ;; core_bwds k' r end.

Lemma core_fwds_app k a b : core_fwds k (a ++ b) = (k' <- core_fwds k a ;; core_fwds k' b).
Proof. exact (mfold_app core_fwd a b k). Qed.
Lemma core_bwds_app k a b : core_bwds k (a ++ b) = (k' <- core_bwds k a ;; core_bwds k' b).
Proof. exact (mfold_app core_bwd a b k). Qed.

Lemma core_fwds_flag_sig cs : forall k k',
  forallb flag_change cs = true -> core_fwds k cs = Ok k' -> rsig k' = rsig k.
Proof.
  induction cs as [|c r IH]; intros k k' Hf H; cbn [core_fwds forallb] in *.
  - inversion H; reflexivity.
  - apply andb_true_iff in Hf. destruct Hf as [Hc Hr]. binv H as k1 E.
    rewrite (IH _ _ Hr H). eapply core_fwd_flag_sig; eassumption.
Qed.

Section Crun.
Variable P : core -> change -> Prop.
Fixpoint crun (k : core) (cs : list change) : Prop :=
  match cs with
  | [] => True
  | c :: r => P k c /\ forall k', core_fwd k c = Ok k' -> crun k' r
  end.
End Crun.

Lemma crun_app P a : forall k b,
  crun P k (a ++ b) <-> crun P k a /\ (forall k', core_fwds k a = Ok k' -> crun P k' b).
Proof.
  induction a as [|c r IH]; intros k b; cbn [app crun core_fwds].
  - split; [intros H; split; [exact I | intros k' E; inversion E; subst; exact H] | intros [_ H]; apply H; reflexivity].
  - split.
    + intros [Hc H]. split; [split; [exact Hc|]|].
      * intros k' E. apply (IH k' b). apply H. exact E.
      * intros k' E. binv E as k1 E1. apply (IH k1 b); [apply H; exact E1 | exact E].
    + intros [[Hc H1] H2]. split; [exact Hc|]. intros k' E. apply IH. split; [apply H1; exact E|].
      intros k'' E'. apply H2. rewrite E. cbn [bind]. exact E'.
Qed.
Lemma crun_mono (P Q : core -> change -> Prop) : (forall k c, P k c -> Q k c) ->
  forall cs k, crun P k cs -> crun Q k cs.
Proof.
  intros HPQ. induction cs as [|c r IH]; intros k H; cbn [crun] in *; [exact I|].
  split; [apply HPQ, H | intros k' E; apply IH, H, E].
Qed.
Lemma crun_in (P : core -> change -> Prop) (Inv : core -> Prop) :
  (forall k c k', P k c -> core_fwd k c = Ok k' -> Inv k -> Inv k') ->
  forall cs k k' c, crun P k cs -> core_fwds k cs = Ok k' -> In c cs -> Inv k -> exists kc, P kc c /\ Inv kc.
Proof.
  intros Hstep. induction cs as [|c0 r IH]; intros k k' c Hc Hf Hin Hi; [destruct Hin|].
  cbn [crun core_fwds] in *. destruct Hc as [Hc Hr]. binv Hf as k1 E. destruct Hin as [<- | Hin].
  - exists k. auto.
  - exact (IH k1 k' c (Hr _ E) Hf Hin (Hstep _ _ _ Hc E Hi)).
Qed.

Lemma crun_inv (P : core -> change -> Prop) (Inv : core -> Prop) :
  (forall k c k', P k c -> core_fwd k c = Ok k' -> Inv k -> Inv k') ->
  forall cs k k', crun P k cs -> core_fwds k cs = Ok k' -> Inv k -> Inv k'.
Proof.
  intros Hstep. induction cs as [|c r IH]; intros k k' Hc Hf Hi; cbn [crun core_fwds] in *; [inversion Hf; subst; exact Hi|].
  destruct Hc as [Hc Hr]. binv Hf as k1 E. exact (IH _ _ (Hr _ E) Hf (Hstep _ _ _ Hc E Hi)).
Qed.

Definition input_changes (g : cfg) (k : core) (i : outpoint) : list change :=
  (if mem_op i (finputs g) then [FundingInputSpent i] else []) ++
  match ckind_of k i with
  | KOur => [OurOutputSpent (snd i)]
  | KSecond => [SecondLevelSpent i]
  | _ => []
  end.
Fixpoint closing_prev (k : core) (ins : list outpoint) (acc : option outpoint) : option outpoint :=
  match ins with
  | [] => acc
  | i :: r => closing_prev k r (if fo_hit k i then Some i else acc)
  end.
Fixpoint htlc_hits (k : core) (ins : list outpoint) (n : N) : list (N * N) :=
  match ins with
  | [] => []
  | i :: r => (match ckind_of k i with KHtlc => [(snd i, n)] | _ => [] end) ++ htlc_hits k r (n + 1)
  end.
Fixpoint input_asserts (k : core) (n : N) (cp : option outpoint) (ins : list outpoint) : bool :=
  match ins with
  | [] => true
  | i :: r =>
      let cp' := if fo_hit k i then Some i else cp in
      (match cp' with Some _ => n =? 0 | None => true end) && input_asserts k (n + 1) cp' r
  end.
Definition inputs_changes (g : cfg) (k : core) (ins : list outpoint) : list change :=
  concat (map (input_changes g k) ins).
Definition hos_changes (t : tx) (hits : list (N * N)) : list change :=
  map (fun p => HTLCOutputSpent (fst p) (tx_id t, snd p)) hits.
Definition end_changes (g : cfg) (t : tx) (cp : option outpoint) (hits : list (N * N)) : list change :=
  (if tx_id t =? ftxid g then [FundingConfirmed (tx_id t, fvout g)] else []) ++
  (match cp with
   | Some prev =>
       match tx_close t with
       | Commitment our h => [UnilateralClose (tx_id t) prev our h]
       | NotCommitment => [MutualClose (tx_id t) prev]
       | CommitmentNoInfo => []
       end
   | None => []
   end) ++ hos_changes t hits.
Definition tx_changes (g : cfg) (k : core) (t : tx) : list change :=
  inputs_changes g k (tx_ins t) ++
  end_changes g t (closing_prev k (tx_ins t) None) (htlc_hits k (tx_ins t) 0).
Definition end_asserts (g : cfg) (t : tx) (cp : option outpoint) : bool :=
  (match cp with
   | Some _ => negb (MAX_COMMITMENT_OUTPUTS <? tx_nout t)
               && match tx_close t with CommitmentNoInfo => false | _ => true end
   | None => true
   end) && (if tx_id t =? ftxid g then fvout g <? tx_nout t else true).
Definition asserts_ok (g : cfg) (k : core) (t : tx) : bool :=
  input_asserts k 0 None (tx_ins t) && end_asserts g t (closing_prev k (tx_ins t) None).

Lemma input_changes_sig g k1 k2 i : rsig k1 = rsig k2 -> input_changes g k1 i = input_changes g k2 i.
Proof. intros H. unfold input_changes. rewrite (ckind_of_sig _ _ i H). reflexivity. Qed.

Lemma input_changes_flag g k i : forallb flag_change (input_changes g k i) = true.
Proof.
  unfold input_changes. rewrite forallb_app. destruct (mem_op i (finputs g)); destruct (ckind_of k i); reflexivity.
Qed.

Lemma add_changes_eq cs : forall d,
  add_changes d cs = (k' <- core_fwds (d_core d) cs ;; Ok (mkd k' (d_changes d ++ cs))).
Proof.
  induction cs as [|c r IH]; intros d; cbn [add_changes core_fwds bind].
  - rewrite app_nil_r. destruct d; reflexivity.
  - unfold add_change. destruct (core_fwd (d_core d) c) as [k1|]; cbn [bind]; [|reflexivity].
    rewrite IH. cbn [d_core d_changes]. rewrite <- app_assoc. reflexivity.
Qed.
Lemma add_changes_app d a b : add_changes d (a ++ b) = (d' <- add_changes d a ;; add_changes d' b).
Proof. exact (mfold_app add_change a b d). Qed.

Lemma on_input_eq g k d sc i : rsig (d_core d) = rsig k ->
  on_input g (d, sc) i =
    (d' <- add_changes d (input_changes g k i) ;;
     let cp := if fo_hit k i then Some i else sc_closing sc in
     if match cp with Some _ => sc_n sc =? 0 | None => true end
     then Ok (d', mksc (sc_n sc + 1) cp (sc_htlcs sc ++ match ckind_of k i with KHtlc => [(snd i, sc_n sc)] | _ => [] end))
     else Abort).
Proof.
  intros Hs. unfold on_input, input_changes. rewrite add_changes_app.
  rewrite <- (fo_hit_sig _ _ i Hs), <- (ckind_of_sig _ _ i Hs).
  (* the funding-input part leaves the core alone *)
  set (d1 := mkd (d_core d) (d_changes d ++ (if mem_op i (finputs g) then [FundingInputSpent i] else []))).
  assert (H1 : (if mem_op i (finputs g) then add_change d (FundingInputSpent i) else Ok d) = Ok d1
               /\ add_changes d (if mem_op i (finputs g) then [FundingInputSpent i] else []) = Ok d1).
  { subst d1. destruct (mem_op i (finputs g)); [split; reflexivity|]. rewrite app_nil_r. destruct d; split; reflexivity. }
  destruct H1 as [-> ->]. cbn [bind]. change (d_core d1) with (d_core d).
  assert (Hfo : match fst (d_core d) with Some f => if op_eqb i f then Some i else sc_closing sc | None => sc_closing sc end
                = if fo_hit (d_core d) i then Some i else sc_closing sc) by (unfold fo_hit; destruct (fst (d_core d)); reflexivity).
  rewrite Hfo. set (cp := if fo_hit (d_core d) i then Some i else sc_closing sc). unfold ckind_of, ckind_cl.
  destruct (snd (d_core d)) as [cl|];
    [destruct (includes_our cl i); [|destruct (includes_htlc cl i); [|destruct (includes_second cl i)]]|];
    cbn [add_changes bind]; try destruct (add_change d1 _); cbn [bind]; rewrite ?app_nil_r; destruct cp; reflexivity.
Qed.

Lemma on_inputs_eq g k ins : forall d sc, rsig (d_core d) = rsig k ->
  on_inputs g (d, sc) ins =
    (d' <- add_changes d (inputs_changes g k ins) ;;
     if input_asserts k (sc_n sc) (sc_closing sc) ins
     then Ok (d', mksc (sc_n sc + N.of_nat (length ins)) (closing_prev k ins (sc_closing sc))
                       (sc_htlcs sc ++ htlc_hits k ins (sc_n sc)))
     else Abort).
Proof.
  unfold inputs_changes. induction ins as [|i r IH]; intros d sc Hs; cbn [on_inputs map concat input_asserts length closing_prev htlc_hits].
  - cbn [add_changes bind]. rewrite N.add_0_r, app_nil_r. destruct sc; reflexivity.
  - rewrite (on_input_eq g k d sc i Hs), add_changes_app.
    destruct (add_changes d (input_changes g k i)) as [d1|] eqn:E1; cbn [bind]; [|reflexivity].
    destruct (match (if fo_hit k i then Some i else sc_closing sc) with Some _ => sc_n sc =? 0 | None => true end); cbn [andb bind].
    + rewrite IH; cbn [d_core d_changes sc_n sc_closing sc_htlcs].
      * rewrite <- app_assoc. replace (sc_n sc + 1 + N.of_nat (length r)) with (sc_n sc + N.of_nat (S (length r))) by lia. reflexivity.
      * rewrite add_changes_eq in E1. binv E1 as k1 Ek. inversion E1; subst d1. cbn [d_core]. rewrite <- Hs.
        exact (core_fwds_flag_sig _ _ _ (input_changes_flag g k i) Ek).
    + destruct (add_changes d1 _); reflexivity.
Qed.

Lemma on_tx_end_eq g d sc t :
  on_tx_end g d sc t =
    if match sc_closing sc with Some _ => match tx_close t with CommitmentNoInfo => false | _ => true end | None => true end
       && (if tx_id t =? ftxid g then fvout g <? tx_nout t else true)
    then add_changes d (end_changes g t (sc_closing sc) (sc_htlcs sc)) else Abort.
Proof.
  unfold on_tx_end, end_changes, hos_changes.
  destruct (tx_id t =? ftxid g); [destruct (fvout g <? tx_nout t)|]; destruct (sc_closing sc) as [prev|]; try destruct (tx_close t); reflexivity.
Qed.

Lemma dec_tx_eq g k c0 t :
  dec_tx g (mkd k c0) t = if asserts_ok g k t then add_changes (mkd k c0) (tx_changes g k t) else Abort.
Proof.
  unfold dec_tx, asserts_ok, tx_changes. rewrite (on_inputs_eq g k (tx_ins t) (mkd k c0) _ eq_refl), add_changes_app.
  cbn [sc_n sc_closing sc_htlcs app]. rewrite N.add_0_l.
  destruct (add_changes (mkd k c0) (inputs_changes g k (tx_ins t))) as [d1|]; cbn [bind];
    [|destruct (input_asserts _ _ _ _ && _); reflexivity].
  destruct (input_asserts k 0 None (tx_ins t)); cbn [andb bind sc_closing]; [|reflexivity].
  rewrite on_tx_end_eq. cbn [sc_closing sc_htlcs]. unfold end_asserts.
  destruct (closing_prev k (tx_ins t) None); [destruct (MAX_COMMITMENT_OUTPUTS <? tx_nout t)|]; reflexivity.
Qed.

Inductive steps (g : cfg) : core -> block -> list change -> core -> Prop :=
| steps_nil k : steps g k [] [] k
| steps_cons k t r k1 chs k2 :
    asserts_ok g k t = true ->
    core_fwds k (tx_changes g k t) = Ok k1 ->
    steps g k1 r chs k2 ->
    steps g k (t :: r) (tx_changes g k t ++ chs) k2.

Lemma dec_txs_steps g b : forall k c0 d',
  dec_txs g (mkd k c0) b = Ok d' <-> exists chs, steps g k b chs (d_core d') /\ d_changes d' = c0 ++ chs.
Proof.
  induction b as [|t r IH]; intros k c0 d'; cbn [dec_txs].
  - split.
    + intros H. inversion H; subst. exists []. cbn [d_core d_changes]. rewrite app_nil_r. split; [constructor | reflexivity].
    + intros [chs [H E]]. inversion H; subst. rewrite app_nil_r in E. destruct d'; cbn in *. subst. reflexivity.
  - rewrite dec_tx_eq, add_changes_eq. cbn [d_core d_changes]. split.
    + intros H. destruct (asserts_ok g k t) eqn:Ea; [|discriminate]. binv H as d1 E. binv E as k1 Ek. inversion E; subst d1.
      apply IH in H. destruct H as [chs [Hs Hc]]. exists (tx_changes g k t ++ chs).
      split; [econstructor; eassumption | rewrite Hc, <- app_assoc; reflexivity].
    + intros [chs [H E]]. inversion H as [|? ? ? k1 chs' ? Ha Hf Hr]; subst. rewrite Ha, Hf. cbn [bind].
      apply IH. exists chs'. split; [exact Hr | rewrite E, <- app_assoc; reflexivity].
Qed.

Lemma decode_block_ok g k b chs :
  decode_block g k b = Ok chs <-> exists k', steps g k b chs k'.
Proof.
  unfold decode_block. split.
  - intros H. binv H as d E. inversion H; subst. apply dec_txs_steps in E. destruct E as [chs [Hs Hc]].
    rewrite Hc. eexists; exact Hs.
  - intros [k' H]. rewrite (proj2 (dec_txs_steps g b k [] (mkd k' chs))); [reflexivity|].
    exists chs. split; [exact H | reflexivity].
Qed.

Lemma steps_fwds g k b chs k' : steps g k b chs k' -> core_fwds k chs = Ok k'.
Proof.
  induction 1 as [|k t r k1 chs k2 Ha Hf Hs IH]; [reflexivity|].
  rewrite core_fwds_app, Hf. cbn [bind]. exact IH.
Qed.

(** the transaction id a change adds to what the core recognises ([None]: the change sets a flag of the closing
    or leaves the core as it is) *)
Definition change_tid (c : change) : option N :=
  match c with
  | FundingConfirmed o => Some (fst o)
  | UnilateralClose txid _ _ _ => Some txid
  | HTLCOutputSpent _ o => Some (fst o)
  | _ => None
  end.

Lemma inputs_changes_tid g k ins c : In c (inputs_changes g k ins) -> change_tid c = None.
Proof.
  unfold inputs_changes. intros H. apply in_concat in H. destruct H as [l [Hl Hc]].
  apply in_map_iff in Hl. destruct Hl as [i [<- _]]. unfold input_changes in Hc.
  apply in_app_or in Hc. destruct Hc as [Hc | Hc].
  - destruct (mem_op i (finputs g)); [destruct Hc as [<- | []]; reflexivity | destruct Hc].
  - destruct (ckind_of k i); cbn [In] in Hc; try (destruct Hc as [<- | []]; reflexivity); destruct Hc.
Qed.

Lemma tx_changes_tid g k t c x : In c (tx_changes g k t) -> change_tid c = Some x -> x = tx_id t.
Proof.
  unfold tx_changes, end_changes. intros H Hx. apply in_app_or in H. destruct H as [H | H].
  - rewrite (inputs_changes_tid _ _ _ _ H) in Hx. discriminate.
  - apply in_app_or in H. destruct H as [H | H].
    + destruct (tx_id t =? ftxid g); [|destruct H]. destruct H as [<- | []]. cbn in Hx. congruence.
    + apply in_app_or in H. destruct H as [H | H].
      * destruct (closing_prev k (tx_ins t) None); [|destruct H].
        destruct (tx_close t); cbn [In] in H; try (destruct H as [<- | []]; cbn in Hx; congruence); destruct H.
      * unfold hos_changes in H. apply in_map_iff in H. destruct H as [p [<- _]]. cbn in Hx. congruence.
Qed.

Lemma steps_in g k b chs k' c :
  steps g k b chs k' -> In c chs -> exists t kt, In t b /\ In c (tx_changes g kt t).
Proof.
  induction 1 as [|k t r k1 chs k2 Ha Hf Hs IH]; intros Hc; [destruct Hc|].
  apply in_app_or in Hc. destruct Hc as [Hc | Hc]; [exists t, k; split; [left; reflexivity | exact Hc]|].
  destruct (IH Hc) as (t' & kt & Ht' & Hc'). exists t', kt. split; [right; exact Ht' | exact Hc'].
Qed.
Lemma steps_tid g k b chs k' c x :
  steps g k b chs k' -> In c chs -> change_tid c = Some x -> exists t, In t b /\ x = tx_id t.
Proof.
  intros Hs Hc Hx. destruct (steps_in _ _ _ _ _ _ Hs Hc) as (t & kt & Ht & Hct).
  exists t. split; [exact Ht | exact (tx_changes_tid _ _ _ _ _ Hct Hx)].
Qed.
