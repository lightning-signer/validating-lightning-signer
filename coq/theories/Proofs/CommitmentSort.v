(** C04, ordering layer: LDK's output sort as seen through the transaction.
    [sort_entries] orders (txout, witness script, HTLC tag) triples with LDK's comparator, whose
    tie-break only exists between two HTLC outputs and is therefore not a preorder on arbitrary
    triples; but two triples that it does not separate by (value, script_pubkey) carry the same
    [txout].  Hence the *outputs* of the sorted list are the insertion sort of the outputs by
    (value, script_pubkey) — a total order — and that list does not depend on the order in which
    the entries were supplied ([sorted_outs_perm]).  This is what makes the transaction rebuilt
    in phase 1 (HTLCs sorted by [CommitmentInfo2::new]) equal to the one built in phase 2 (HTLCs
    in the caller's order). *)
From Coq Require Import List NArith Bool Permutation.
From VLS Require Import Base.Codec Model.Commitment Proofs.ListSort.
Import ListNotations.
Open Scope N_scope.

Lemma bytes_cmp_ok : cmp_ok bytes_cmp.
Proof. exact (lex_cmp_ok N.compare N_cmp_ok). Qed.

Lemma bytes_cmp_refl (a : bytes) : bytes_cmp a a = Eq.
Proof. exact (cmp_refl bytes_cmp_ok a). Qed.

Definition out_cmp (a b : txout) : comparison :=
  match o_value a ?= o_value b with
  | Eq => bytes_cmp (o_spk a) (o_spk b)
  | c => c
  end.

Lemma out_cmp_ok : cmp_ok out_cmp.
Proof.
  apply (cmp_then_ok o_value o_spk N.compare bytes_cmp); [|exact N_cmp_ok|exact bytes_cmp_ok].
  intros [va sa] [vb sb]. cbn [o_value o_spk]. intros -> ->. reflexivity.
Qed.

Local Notation out_leb := (leb_of out_cmp).
Local Notation sort_outs := (isort out_leb).

Lemma entry_cmp_out a b :
  match out_cmp (e_out a) (e_out b) with
  | Lt => entry_cmp a b = Lt
  | Gt => entry_cmp a b = Gt
  | Eq => e_out a = e_out b
  end.
Proof.
  pose proof (cmp_eq out_cmp_ok (e_out a) (e_out b)) as HE.
  unfold out_cmp, entry_cmp in *.
  destruct (o_value (e_out a) ?= o_value (e_out b)); try reflexivity.
  destruct (bytes_cmp (o_spk (e_out a)) (o_spk (e_out b))); try reflexivity. apply HE. reflexivity.
Qed.

Lemma insert_entry_outs x : forall l,
  sorted out_leb (map e_out l) ->
  map e_out (insert_entry x l) = ins out_leb (e_out x) (map e_out l).
Proof.
  induction l as [|y r IH]; intros Hs; cbn [insert_entry map ins]; [reflexivity|].
  pose proof (entry_cmp_out x y) as HC. unfold entry_leb, leb_of.
  destruct (out_cmp (e_out x) (e_out y)) eqn:EO.
  - (* same output: wherever the entry goes inside the block, the outputs read the same *)
    destruct (entry_cmp x y); cbn [map]; try reflexivity.
    cbn [map sorted] in Hs. destruct Hs as [Hy Hr].
    rewrite IH by exact Hr. rewrite HC.
    rewrite ins_head; [reflexivity|]. cbn [sorted]. split; assumption.
  - rewrite HC. reflexivity.
  - rewrite HC. cbn [map]. cbn [map sorted] in Hs. rewrite IH by apply Hs. reflexivity.
Qed.

Lemma sort_entries_outs l : map e_out (sort_entries l) = sort_outs (map e_out l).
Proof.
  induction l as [|x l IH]; cbn [sort_entries isort fold_right map]; [reflexivity|].
  fold (sort_entries l) (sort_outs (map e_out l)). rewrite insert_entry_outs; rewrite IH; [reflexivity|].
  apply isort_sorted. exact out_cmp_ok.
Qed.

Theorem sorted_outs_perm l l' :
  Permutation l l' -> map e_out (sort_entries l) = map e_out (sort_entries l').
Proof.
  intros H. rewrite !sort_entries_outs.
  apply isort_of_perm; [exact out_cmp_ok|]. apply Permutation_map. exact H.
Qed.

Lemma sort_entries_perm l : Permutation (sort_entries l) l.
Proof. exact (isort_perm entry_leb l). Qed.

Lemma sort_htlcs_perm l : Permutation (sort_htlcs l) l.
Proof. exact (isort_perm htlc_leb l). Qed.

Lemma Forall_sort_htlcs (P : htlc -> Prop) l : Forall P (sort_htlcs l) -> Forall P l.
Proof. apply Permutation_Forall, sort_htlcs_perm. Qed.

Lemma perm_case_nil {A X} (l l' : list A) (x y : X) :
  Permutation l l' ->
  match l with [] => x | _ :: _ => y end = match l' with [] => x | _ :: _ => y end.
Proof.
  intros P. destruct l, l'; try reflexivity; exfalso;
    [apply Permutation_nil in P|apply Permutation_sym, Permutation_nil in P]; discriminate.
Qed.
