(** Proofs about [Model.Tracker]: an accepted add/remove is a validated block, a refusal
    changes nothing, a later correct request still succeeds (C13). *)
From VLS Require Import Base.U64 Model.Tracker.
From VLS Require Proofs.RustFacts.
From Coq Require Import ZifyBool ZifyN ZifyNat.

Lemma hdr_eqb_eq a b : hdr_eqb a b = true -> a = b.
Proof.
  destruct a as [a1 a2 a3 a4 a5], b as [b1 b2 b3 b4 b5]. unfold hdr_eqb. cbn [hid hprev hpow hbits htime].
  rewrite !andb_true_iff, !N.eqb_eq, Bool.eqb_true_iff.
  intros [[[[-> ->] ->] ->] ->]. reflexivity.
Qed.

Lemma half_of_majority c p : majority_ok c p = true -> half_attesting c p.
Proof.
  unfold majority_ok, half_attesting, required_majority. intros H.
  apply N.leb_le in H.
  set (n := N.of_nat (length (trusted c))) in *.
  pose proof (N.mul_succ_div_gt (n + 1) 2 ltac:(lia)) as Hd.
  set (q := (n + 1) / 2) in *. clearbody q. lia.
Qed.

Lemma key_matches_ext c p p' :
  (forall k, attests p k = attests p' k) -> key_matches c p = key_matches c p'.
Proof.
  intros H. unfold key_matches. f_equal. f_equal.
  apply filter_ext. exact H.
Qed.

Lemma attests_in p k : attests p k = true <-> In k (attesters p).
Proof.
  unfold attests. rewrite existsb_exists. split.
  - intros [x [Hin He]]. apply N.eqb_eq in He. subst. exact Hin.
  - intros Hin. exists k. split; [exact Hin | apply N.eqb_refl].
Qed.

(** only the set of attesting keys matters: repeating or reordering attestations changes nothing *)
Lemma key_matches_set c p p' :
  (forall k, In k (attesters p) <-> In k (attesters p')) -> key_matches c p = key_matches c p'.
Proof.
  intros H. apply key_matches_ext. intros k.
  destruct (attests p k) eqn:E1, (attests p' k) eqn:E2; try reflexivity.
  - apply attests_in in E1. apply H in E1. apply attests_in in E1. congruence.
  - apply attests_in in E2. apply H in E2. apply attests_in in E2. congruence.
Qed.

Lemma filter_len_le {A} (f : A -> bool) l : (length (filter f l) <= length l)%nat.
Proof. induction l as [|x l IH]; cbn [filter length]; [lia|]. destruct (f x); cbn [length]; lia. Qed.

Lemma key_matches_le_trusted c p : key_matches c p <= N.of_nat (length (trusted c)).
Proof.
  unfold key_matches. pose proof (filter_len_le (attests p) (trusted c)). lia.
Qed.

Lemma proof_rule_sound c f p r :
  proof_rule c f p r = true ->
  f = 0 \/ warn c = true \/ (pok p r = true /\ half_attesting c p).
Proof.
  unfold proof_rule. rewrite !orb_true_iff, andb_true_iff, N.eqb_eq.
  intros [[H|H]|[H1 H2]]; [left; exact H | right; left; exact H |
                           right; right; split; [exact H1 | apply half_of_majority; exact H2]].
Qed.

Lemma validate_ok c ht prev hd p r :
  validate c ht prev hd p r = VOk ->
  hprev (fst hd) = hid (fst prev) /\ hpow (fst hd) = true /\
  chain_rule c ht (fst prev) (fst hd) = ROk /\ proof_rule c (snd prev) p r = true.
Proof.
  unfold validate.
  destruct (hprev (fst hd) =? hid (fst prev)) eqn:Hl; cbn [negb]; [|discriminate].
  destruct (hpow (fst hd)) eqn:Hp; cbn [negb]; [|discriminate].
  destruct (chain_rule c ht (fst prev) (fst hd)) eqn:Hc; try discriminate.
  destruct (proof_rule c (snd prev) p r) eqn:Hr; [|discriminate].
  intros _. apply N.eqb_eq in Hl. auto.
Qed.

Lemma validate_complete c ht prev hd p r :
  hprev (fst hd) = hid (fst prev) -> hpow (fst hd) = true ->
  chain_rule c ht (fst prev) (fst hd) = ROk -> proof_rule c (snd prev) p r = true ->
  validate c ht prev hd p r = VOk.
Proof.
  intros Hl Hp Hc Hr. unfold validate.
  rewrite Hl, N.eqb_refl, Hp, Hc, Hr. reflexivity.
Qed.

Lemma block_valid_of_validate c ht prev hd p r :
  validate c ht prev hd p r = VOk -> block_valid c ht prev hd p r.
Proof.
  intros Hv. apply validate_ok in Hv. destruct Hv as (Hl & Hp & Hc & Hr).
  unfold block_valid. repeat split; try assumption.
  apply (proof_rule_sound c _ p r Hr).
Qed.

Lemma supplied_check_none c s prev :
  supplied_check c s prev = None ->
  match hdrs s with h0 :: _ => prev = h0 | [] => allow_deep c = true end.
Proof.
  unfold supplied_check. destruct (hdrs s) as [|h0 t].
  - destruct (allow_deep c); [reflexivity | discriminate].
  - destruct (hdr_eqb (fst prev) (fst h0)) eqn:He; cbn [negb]; [|discriminate].
    destruct (snd prev =? snd h0) eqn:Hf; cbn [negb]; [|discriminate].
    intros _. apply hdr_eqb_eq in He. apply N.eqb_eq in Hf.
    destruct prev, h0. cbn [fst snd] in *. subst. reflexivity.
Qed.

Lemma zipw_set_mon_watch sls ms :
  map (fun sl => (skey sl, stxw sl, swatch sl, sseen sl)) (zipw set_mon sls ms) =
  map (fun sl => (skey sl, stxw sl, swatch sl, sseen sl)) sls.
Proof.
  revert ms. induction sls as [|sl r IH]; intros [|m mr]; cbn [zipw map]; try reflexivity.
  rewrite IH. reflexivity.
Qed.

Definition stream_after (r : req) (s s' : tstate) : Prop :=
  match r with
  | Add _ p | Remove _ p =>
      decoding s' = None /\ mon_dec s' = (if is_ext p then false else mon_dec s) /\
      (is_ext p = false -> decoding s = None)
  | Chunk _ _ _ _ _ => decoding s' <> None
  | Restart _ => True
  end.

Inductive step_spec (c : cfg) (s : tstate) (r : req) : tstate -> result -> Prop :=
| sp_abort : step_spec c s r s Abort
| sp_err e : step_spec c s r (settled r s) (Err e)
| sp_ok s' : accepted_ok c s r s' -> stream_after r s s' -> step_spec c s r s' Ok.

Lemma finish_decode_ok s p x : finish_decode s p x = FOk -> is_ext p = false -> decoding s = None.
Proof.
  unfold finish_decode. destruct (decoding s) as [[i b]|]; [|reflexivity].
  intros H E. rewrite E in H. discriminate H.
Qed.

(** closes the branches that panic or refuse *)
Ltac bad := first [apply sp_abort | apply sp_err].

Lemma step_fixed_spec c s r : step_spec c s r (fst (step fixed c s r)) (snd (step fixed c s r)).
Proof.
  destruct r as [h p | prev p | id first wf complete mons | rmons]; cbn [step].
  - unfold add. change (reject fixed s p true) with (settled (Add h p) s).
    destruct (finish_decode s p (hid h)) eqn:Hf; try bad.
    destruct (pfh p) as [fh|] eqn:Hfh; try bad.
    destruct (validate c (height s) (tip s) (h, fh) p false) eqn:Hv; try bad.
    apply block_valid_of_validate in Hv.
    destruct (pty p) eqn:Hp; try bad;
      (destruct (deltas p); [|bad]);
      (destruct (add32 (prof c) (height s) 1) eqn:Ha; [|bad]);
      (apply sp_ok;
       [exists fh; exact (conj Hfh (conj Hv (conj eq_refl (conj Ha eq_refl))))
       |exact (conj eq_refl (conj eq_refl (finish_decode_ok _ _ _ Hf)))]).
  - unfold remove. cbn [pop_early fixed].
    change (reject fixed s p) with (fun _ : bool => settled (Remove prev p) s). cbv beta.
    destruct (supplied_check c s prev) eqn:Hs; try bad. apply supplied_check_none in Hs.
    destruct (finish_decode s p (hid (fst prev))) eqn:Hf; try bad.
    destruct (sub32 (prof c) (height s) 1) as [hm1|] eqn:Hh; try bad.
    destruct (validate c hm1 prev (tip s) p true) eqn:Hv; try bad.
    apply block_valid_of_validate in Hv.
    destruct (pty p) eqn:Hp; try bad;
      (destruct (deltas p); [|bad]);
      (apply sp_ok;
       [exists hm1; exact (conj Hh (conj Hv (conj eq_refl (conj eq_refl (conj eq_refl Hs)))))
       |exact (conj eq_refl (conj eq_refl (finish_decode_ok _ _ _ Hf)))]).
  - unfold chunk. destruct wf; cbn [negb]; [|bad].
    destruct first.
    + destruct (decoding s); try bad.
      destruct (mon_dec s && has_listeners s); try bad.
      apply sp_ok; cbn [fst stream_after accepted_ok decoding hdrs tip height]; [|discriminate].
      unfold watch_view. cbn [slots]. rewrite zipw_set_mon_watch. auto.
    + destruct (decoding s) as [[id' b]|]; try bad.
      destruct (id' =? id); try bad.
      apply sp_ok; cbn [fst stream_after accepted_ok decoding]; [auto | discriminate].
  - unfold restart.
    destruct (checkpoint c) as [[hd0 h0]|] eqn:Hc; [destruct (height s =? 0) eqn:Hz|];
      (apply sp_ok; [|exact I]); unfold accepted_ok, watch_view, quiet;
      cbn [fst hdrs tip height slots decoding mon_dec]; rewrite zipw_set_mon_watch;
      (split; [reflexivity|]); (split; [split; reflexivity|]); auto.
    right. apply N.eqb_eq in Hz. split; [exact Hz|]. exists hd0, h0. auto.
Qed.

Lemma step_inv c s r s' res : step fixed c s r = (s', res) -> step_spec c s r s' res.
Proof. intros H. pose proof (step_fixed_spec c s r) as S. rewrite H in S. exact S. Qed.

(** C13, first half, for one request from any state *)
Lemma step_ok_valid c s r s' : step fixed c s r = (s', Ok) -> accepted_ok c s r s'.
Proof. intros H. apply step_inv in H. inversion H. assumption. Qed.

(** C13, second half, for one request from any state: a refusal leaves the state as it was
    (and, for a streamed block, without the stream) *)
Lemma step_err_settled c s r s' e : step fixed c s r = (s', Err e) -> s' = settled r s.
Proof. intros H. apply step_inv in H. inversion H. reflexivity. Qed.

Lemma view_quiesce s : view (quiesce s) = view s.
Proof. reflexivity. Qed.

Lemma view_settled r s : view (settled r s) = view s.
Proof. unfold settled. destruct (streamed r); reflexivity. Qed.

Lemma step_err_atomic c s r s' e :
  step fixed c s r = (s', Err e) -> view s' = view s /\ s' = settled r s.
Proof.
  intros H. apply step_err_settled in H. subst. split; [apply view_settled | reflexivity].
Qed.

Lemma settled_quiet r s :
  streamed r = true \/ quiet s -> quiet (settled r s).
Proof.
  unfold settled. destruct (streamed r); intros [H|H]; try discriminate; try exact H.
  - split; reflexivity.
  - split; reflexivity.
Qed.

(* [add32], [sub32] of Model/Tracker.v have the bodies of [Rust.add32_p], [Rust.sub32_p]: the lemmas of
   RustFacts.v apply by conversion *)
Lemma add32_small p a : a < U32MAX -> add32 p a 1 = Val (a + 1).
Proof. intros H. apply RustFacts.add32_p_ok. lia. Qed.

Lemma sub32_pos p a : 0 < a -> a <= U32MAX -> sub32 p a 1 = Val (a - 1).
Proof. intros H H2. apply RustFacts.sub32_p_ok; unfold U32MAX, two32 in *; lia. Qed.

Lemma add_correct c s h p :
  finish_decode s p (hid h) = FOk -> pty p <> PBlock -> correct_add c s h p ->
  snd (step fixed c s (Add h p)) = Ok.
Proof.
  intros Hf Hp ([fh Hfh] & Hdl & Hl & Hpow & Hc & Hr & Hh).
  cbn [step]. unfold add. rewrite Hf, Hfh.
  rewrite (validate_complete c (height s) (tip s) (h, fh) p false Hl Hpow Hc Hr).
  destruct (deltas p) as [ds|]; [|congruence].
  rewrite (add32_small _ _ Hh). destruct (pty p); [reflexivity | congruence | reflexivity].
Qed.

Lemma correct_add_accepted c s h p :
  decoding s = None -> pty p = PFilter -> correct_add c s h p ->
  snd (step fixed c s (Add h p)) = Ok.
Proof.
  intros Hd Hp. apply add_correct; [|congruence].
  unfold finish_decode, is_ext. rewrite Hd, Hp. reflexivity.
Qed.

Lemma correct_remove_accepted c s prev p :
  decoding s = None -> pty p = PFilter -> correct_remove c s prev p ->
  snd (step fixed c s (Remove prev p)) = Ok.
Proof.
  intros Hd Hp (Hdl & Hs & Hh & Hh2 & Hl & Hpow & Hc & Hr).
  cbn [step]. unfold remove, finish_decode, is_ext. cbn [pop_early fixed]. rewrite Hs, Hd, Hp.
  rewrite (sub32_pos _ _ Hh Hh2).
  rewrite (validate_complete c (height s - 1) prev (tip s) p true Hl Hpow Hc Hr).
  destruct (deltas p) as [ds|]; [|congruence]. reflexivity.
Qed.

Lemma correct_add_view c s1 s2 h p : view s1 = view s2 -> correct_add c s1 h p -> correct_add c s2 h p.
Proof.
  unfold view, correct_add. intros H. inversion H as [[H1 H2 H3 H4]]. rewrite H2, H3. auto.
Qed.
Lemma correct_remove_view c s1 s2 prev p :
  view s1 = view s2 -> correct_remove c s1 prev p -> correct_remove c s2 prev p.
Proof.
  unfold view, correct_remove, supplied_check. intros H. inversion H as [[H1 H2 H3 H4]].
  rewrite H1, H2, H3. auto.
Qed.

(** a streamed block: here the stream is one chunk *)
Lemma correct_stream_accepted c s h p mons :
  quiet s -> pty p = PExternal -> correct_add c s h p ->
  exists s1, step fixed c s (Chunk (hid h) true true true mons) = (s1, Ok) /\
             snd (step fixed c s1 (Add h p)) = Ok.
Proof.
  intros [Hd Hm] Hp Hc.
  cbn [step]. unfold chunk. cbn [negb]. rewrite Hd, Hm. cbn [andb].
  eexists. split; [reflexivity|].
  apply add_correct; [|congruence|exact Hc].
  unfold finish_decode, is_ext. cbn [decoding negb]. rewrite Hp, N.eqb_refl. reflexivity.
Qed.

Lemma steps_forall (P : tstate * req * tstate * result -> Prop) v c :
  (forall s r s' res, step v c s r = (s', res) -> P (s, r, s', res)) ->
  forall rs s, Forall P (steps v c s rs).
Proof.
  intros HP. induction rs as [|r rs IH]; intros s; cbn [steps]; [constructor|].
  destruct (step v c s r) as [s1 res] eqn:E.
  constructor; [exact (HP _ _ _ _ E)|]. destruct res; [apply IH | apply IH | constructor].
Qed.

Lemma history_err_atomic c rs s :
  Forall (fun '(s1, r, s2, res) => forall e, res = Err e -> view s2 = view s1 /\ s2 = settled r s1)
         (steps fixed c s rs).
Proof.
  apply steps_forall. intros s1 r s2 res H e ->. exact (step_err_atomic _ _ _ _ _ H).
Qed.

Lemma step_later_ok c s r s' e : step fixed c s r = (s', Err e) -> later_ok c s r s'.
Proof.
  intros H Hq. apply step_err_atomic in H. destruct H as [Hv ->].
  pose proof (settled_quiet r s Hq) as [Hd Hm]. symmetry in Hv.
  repeat split.
  - intros h p Hp Hc. apply correct_add_accepted; [exact Hd | exact Hp |].
    exact (correct_add_view c s _ h p Hv Hc).
  - intros prev p Hp Hc. apply correct_remove_accepted; [exact Hd | exact Hp |].
    exact (correct_remove_view c s _ prev p Hv Hc).
  - intros h p mons Hp Hc. apply correct_stream_accepted; [split; assumption | exact Hp |].
    exact (correct_add_view c s _ h p Hv Hc).
Qed.

Lemma run_invariant (I : tstate -> Prop) v c :
  (forall s r, I s -> I (fst (step v c s r))) ->
  forall rs s, I s -> I (run v c s rs).
Proof.
  intros HI. induction rs as [|r rs IH]; intros s Hs; cbn [run]; [exact Hs|].
  pose proof (HI s r Hs) as H1. destruct (step v c s r) as [s1 res]. cbn [fst] in H1.
  destruct res; [apply IH; exact H1 | apply IH; exact H1 | exact H1].
Qed.

Lemma clean_settled r s : clean s -> clean (settled r s).
Proof. unfold settled, clean. destruct (streamed r); cbn [quiesce mon_dec]; [discriminate | auto]. Qed.

Lemma step_clean c s r : clean s -> clean (fst (step fixed c s r)).
Proof.
  intros Hs. destruct (step_fixed_spec c s r) as [|e|s' Hok Hst]; [exact Hs | apply clean_settled, Hs |].
  unfold clean in *. destruct r as [h p | prev p | | ]; cbn [stream_after accepted_ok] in *.
  - destruct Hst as (_ & Hm & Hd). rewrite Hm. destruct (is_ext p); [discriminate|].
    intros E. exfalso. exact (Hs E (Hd eq_refl)).
  - destruct Hst as (_ & Hm & Hd). rewrite Hm. destruct (is_ext p); [discriminate|].
    intros E. exfalso. exact (Hs E (Hd eq_refl)).
  - intros _. exact Hst.
  - destruct Hok as (_ & [_ Hq] & _). rewrite Hq. discriminate.
Qed.

Lemma linked_firstn ch l n : linked ch l -> linked ch (firstn n l).
Proof.
  revert ch n. induction l as [|h t IH]; intros ch [|n]; cbn [firstn linked]; auto.
  intros [H1 H2]. split; [exact H1 | apply IH; exact H2].
Qed.

Lemma window_settled r s : window_ok s -> window_ok (settled r s).
Proof. unfold settled. destruct (streamed r); auto. Qed.

Lemma step_window_ok c s r : window_ok s -> window_ok (fst (step fixed c s r)).
Proof.
  intros Hs. destruct (step_fixed_spec c s r) as [|e|s' Hok _]; [exact Hs | apply window_settled, Hs |].
  destruct Hs as [Hl Hn]. unfold window_ok. destruct r as [h p | prev p | | ]; cbn [accepted_ok] in Hok.
  - destruct Hok as (fh & _ & (Hlk & _) & -> & _ & ->). cbn [fst linked length]. split.
    + split; [exact Hlk | apply linked_firstn; exact Hl].
    + rewrite firstn_length. unfold MAX_REORG_SIZE in *. lia.
  - destruct Hok as (hm1 & _ & _ & -> & _ & -> & Hp).
    destruct (hdrs s) as [|h0 t]; cbn [tl linked length] in *; [split; [exact I | lia]|].
    subst h0. destruct Hl as [_ Hl]. split; [exact Hl | lia].
  - destruct Hok as (-> & -> & _). auto.
  - destruct Hok as (_ & _ & [(-> & -> & _) | (_ & hd & h & _ & -> & _)]); [auto|].
    split; [exact I | cbn [length]; unfold MAX_REORG_SIZE; lia].
Qed.
