(** C15: channel state is discarded only when safely buried, and ids are never reused.
    Invariants of Model/Prune.v over all histories of new / setup / forget / heartbeat /
    block connected / block disconnected / restart, on top of the C14 results about one
    channel's monitor (Proofs/MonitorProofs.v: [history], [Reach], [norm_views]). *)
From VLS Require Import Model.Monitor Model.Prune Proofs.MonitorSets Proofs.MonitorDecode Proofs.MonitorUndo
  Proofs.MonitorSim Proofs.MonitorInv Proofs.MonitorProofs.

Lemma cfind_cput id' id v l : cfind id' (cput id v l) = if op_eqb id' id then Some v else cfind id' l.
Proof.
  induction l as [|[k w] r IH]; cbn [cput cfind]; [reflexivity|].
  destruct (ocmp id k) eqn:E; cbn [cfind]; [|reflexivity|].
  - apply ocmp_eq in E. subst k. destruct (op_eqb id' id); reflexivity.
  - rewrite IH. destruct (op_eqb id' k) eqn:Ek, (op_eqb id' id) eqn:Ei; try reflexivity.
    apply op_eqb_eq in Ek, Ei. subst. rewrite (proj2 (ocmp_eq k k) eq_refl) in E. discriminate.
Qed.
Lemma cfind_cdel id' id l : cfind id' (cdel id l) = if op_eqb id' id then None else cfind id' l.
Proof.
  unfold cdel. induction l as [|[k w] r IH]; cbn [filter cfind fst]; [destruct (op_eqb id' id); reflexivity|].
  destruct (op_eqb id k) eqn:E; cbn [negb cfind]; rewrite IH.
  - apply op_eqb_eq in E. subst k. destruct (op_eqb id' id); reflexivity.
  - destruct (op_eqb id' k) eqn:Ek; [|reflexivity]. apply op_eqb_eq in Ek. subst k. rewrite op_eqb_sym, E. reflexivity.
Qed.
Lemma cfind_map (f : slot -> slot) id l :
  cfind id (map (fun p => (fst p, f (snd p))) l) = option_map f (cfind id l).
Proof.
  induction l as [|[k w] r IH]; cbn [map cfind fst snd option_map]; [reflexivity|].
  destruct (op_eqb id k); [reflexivity | exact IH].
Qed.
Lemma cfind_flush id l : cfind id (flush l) = option_map flush_slot (cfind id l).
Proof. apply cfind_map. Qed.
Lemma cfind_filter_keep (q : chanid * slot -> bool) id sl l :
  cfind id l = Some sl -> q (id, sl) = true -> cfind id (filter q l) = Some sl.
Proof.
  induction l as [|[k w] r IH]; cbn [cfind filter]; [discriminate|].
  destruct (op_eqb id k) eqn:E.
  - apply op_eqb_eq in E. subst k. intros H Hq. inversion H; subst. rewrite Hq. cbn [cfind]. rewrite op_eqb_refl. reflexivity.
  - intros H Hq. destruct (q (k, w)); [cbn [cfind]; rewrite E|]; apply IH; assumption.
Qed.
Lemma cfind_In id sl l : cfind id l = Some sl -> In (id, sl) l.
Proof.
  induction l as [|[k w] r IH]; cbn [cfind]; [discriminate|].
  destruct (op_eqb id k) eqn:E; [|intros H; right; apply IH; exact H].
  apply op_eqb_eq in E. subst k. intros H. inversion H; subst. left; reflexivity.
Qed.
Lemma In_cfind id sl l : In (id, sl) l -> cfind id l <> None.
Proof.
  induction l as [|[k w] r IH]; [intros []|]. intros [H | H]; cbn [cfind].
  - inversion H; subst. rewrite op_eqb_refl. discriminate.
  - destruct (op_eqb id k); [discriminate | apply IH; exact H].
Qed.
Lemma cfind_filter_drop (q : chanid * slot -> bool) id sl l :
  cfind id l = Some sl -> q (id, sl) = false ->
  (forall sl', cfind id (filter q l) = Some sl' -> exists sl0, In (id, sl0) l) .
Proof. intros _ _ sl' H. apply cfind_In, filter_In in H. exists sl'. apply H. Qed.

Lemma In_cput x id v l : In x (cput id v l) -> x = (id, v) \/ In x l.
Proof.
  induction l as [|[k w] r IH]; cbn [cput].
  - intros [<- | []]. left; reflexivity.
  - destruct (ocmp id k).
    + intros [<- | H]; [left; reflexivity | right; right; exact H].
    + intros [<- | H]; [left; reflexivity | right; exact H].
    + intros [<- | H]; [right; left; reflexivity|]. destruct (IH H) as [G | G]; [left; exact G | right; right; exact G].
Qed.
Lemma In_cdel x id l : In x (cdel id l) -> In x l.
Proof. unfold cdel. intros H. apply filter_In in H. tauto. Qed.
Lemma In_mapslot (f : slot -> slot) (id : chanid) sl' (l : cmap) :
  In (id, sl') (map (fun p => (fst p, f (snd p))) l) -> exists sl, In (id, sl) l /\ sl' = f sl.
Proof.
  intros H. apply in_map_iff in H. destruct H as [[k w] [E H]]. cbn [fst snd] in E. inversion E; subst. exists w. auto.
Qed.

Definition present (id : chanid) (s : node) : Prop := cfind id (chans s) <> None.
Definition ready_cfg (id : chanid) (g : cfg) (s : node) : Prop :=
  exists a m fg fd gh, cfind id (chans s) = Some (Ready g a m fg fd gh).

Definition slot_cfg (sl : slot) : option cfg := match sl with Ready g _ _ _ _ _ => Some g | Stub _ => None end.
Definition slot_asked (sl : slot) : bool := match sl with Ready _ _ _ _ _ gh => g_asked gh | Stub _ => false end.

Lemma slot_cfg_flush sl : slot_cfg (flush_slot sl) = slot_cfg sl.
Proof. destruct sl; reflexivity. Qed.
Lemma slot_cfg_restart sl : slot_cfg (restart_slot sl) = slot_cfg sl.
Proof. destruct sl; reflexivity. Qed.
Lemma slot_asked_flush sl : slot_asked (flush_slot sl) = slot_asked sl.
Proof. destruct sl; reflexivity. Qed.
Lemma slot_asked_restart sl : slot_asked (restart_slot sl) = slot_asked sl.
Proof. destruct sl; reflexivity. Qed.

Definition cfg_at (id : chanid) (l : cmap) : option cfg :=
  match cfind id l with Some sl => slot_cfg sl | None => None end.
Lemma ready_cfg_iff id g s : ready_cfg id g s <-> cfg_at id (chans s) = Some g.
Proof.
  unfold ready_cfg, cfg_at. split; [intros (a & m & fg & fd & gh & ->); reflexivity|].
  destruct (cfind id (chans s)) as [[c|g' a m fg fd gh]|]; try discriminate.
  intros E. injection E as ->. exists a, m, fg, fd, gh. reflexivity.
Qed.
Lemma cfg_at_flush id l : cfg_at id (flush l) = cfg_at id l.
Proof. unfold cfg_at. rewrite cfind_flush. destruct (cfind id l); [apply slot_cfg_flush | reflexivity]. Qed.

Lemma deliver_slot_ready f o g a m fg fd gh sl' :
  deliver_slot f o (Ready g a m fg fd gh) = Ok sl' ->
  exists m', f g m = Ok m' /\ sl' = Ready g a m' fg fd (gh_push gh o).
Proof. cbn [deliver_slot]. intros H. binv H as m' E. inversion H; subst. exists m'. auto. Qed.
Lemma deliver_slot_keeps f o sl sl' : deliver_slot f o sl = Ok sl' ->
  slot_cfg sl' = slot_cfg sl /\ slot_asked sl' = slot_asked sl.
Proof.
  destruct sl as [c|g a m fg fd gh]; [intros H; inversion H; auto|]. intros H.
  destruct (deliver_slot_ready _ _ _ _ _ _ _ _ _ H) as [m' [_ ->]]. split; [reflexivity|].
  destruct o; cbn [gh_push slot_asked]; [|destruct (g_view gh)]; reflexivity.
Qed.
Lemma deliver_find f o l : forall l', deliver f o l = Ok l' ->
  forall id, match cfind id l with
             | Some sl => exists sl', deliver_slot f o sl = Ok sl' /\ cfind id l' = Some sl'
             | None => cfind id l' = None
             end.
Proof.
  induction l as [|[k w] r IH]; intros l' H id; cbn [deliver] in H.
  - inversion H; subst. reflexivity.
  - binv H as w' Ew. binv H as r' Er. inversion H; subst. clear H.
    cbn [cfind]. destruct (op_eqb id k).
    + exists w'. split; [exact Ew | reflexivity].
    + apply IH. exact Er.
Qed.
Lemma In_deliver f o l : forall l', deliver f o l = Ok l' ->
  forall id sl', In (id, sl') l' -> exists sl, In (id, sl) l /\ deliver_slot f o sl = Ok sl'.
Proof.
  induction l as [|[k w] r IH]; intros l' H id sl' Hin; cbn [deliver] in H.
  - inversion H; subst. destruct Hin.
  - binv H as w' Ew. binv H as r' Er. inversion H; subst. clear H.
    destruct Hin as [Hin | Hin].
    + inversion Hin; subst. exists w. split; [left; reflexivity | exact Ew].
    + destruct (IH _ Er _ _ Hin) as [sl [G1 G2]]. exists sl. split; [right; exact G1 | exact G2].
Qed.

Definition hwm_after (s : node) (o : nop) : N :=
  match o with
  | Forget id => match cfind id (chans s) with Some _ => N.max (hwm s) (dbid id) | None => hwm s end
  | _ => hwm s
  end.
Definition tip_after (s : node) (o : nop) : N * list block :=
  match o with
  | AddBlock b => (theight s + 1, b :: chain s)
  | RemoveBlock => match chain s with [] => (theight s, []) | _ :: r => (theight s - 1, r) end
  | _ => (theight s, chain s)
  end.

Lemma step_frame p s o s' out : step p s o = Ok (s', out) ->
  hwm s' = hwm_after s o /\ (theight s', chain s') = tip_after s o /\ (theight s <= U32MAX -> theight s' <= U32MAX).
Proof.
  destruct o; cbn [step hwm_after tip_after]; intros H.
  - destruct (dbid id <=? hwm s), (max_channels p <=? nkeys (chans s)), (cfind id (chans s)); inversion H; auto.
  - destruct (cfind id (chans s)) as [[c|g' a' m fg fd gh]|]; [|destruct (cfg_eqb g g')|]; inversion H; auto.
  - destruct (cfind id (chans s)) as [[c|g' a' m fg fd gh]|]; inversion H; auto.
  - inversion H; auto.
  - destruct (U32MAX <=? theight s) eqn:E; [discriminate|]. apply N.leb_gt in E. binv H as l El. inversion H; subst.
    cbn [hwm theight chain]. split; [reflexivity|]. split; [reflexivity | lia].
  - destruct (chain s) as [|b rest] eqn:Ech; [inversion H; subst; rewrite Ech; auto|]. binv H as l El. inversion H; subst.
    cbn [hwm theight chain]. split; [reflexivity|]. split; [reflexivity | lia].
  - inversion H; auto.
Qed.

(** where a slot of the node after a step comes from *)
Inductive slot_tr (p : params) (s : node) (id : chanid) : nop -> slot -> Prop :=
| tr_same o sl : tip_after s o = (theight s, chain s) -> In (id, sl) (chans s) -> slot_tr p s id o sl
| tr_flush o sl : tip_after s o = (theight s, chain s) -> In (id, sl) (chans s) -> slot_tr p s id o (flush_slot sl)
| tr_restart sl : In (id, sl) (chans s) -> slot_tr p s id Restart (restart_slot sl)
| tr_new : hwm s < dbid id -> slot_tr p s id (NewChannel id) (Stub (theight s))
| tr_setup a g c : cfind id (chans s) = Some (Stub c) ->
    slot_tr p s id (Setup id a g) (Ready g a (init_mon g (theight s)) false false (mkgh false (theight s) []))
| tr_forget g a m fg fd gh : cfind id (chans s) = Some (Ready g a m fg fd gh) ->
    slot_tr p s id (Forget id) (Ready g a m true (if forget_flush p then true else fd) (mkgh true (g_h0 gh) (g_view gh)))
| tr_add b sl sl' : In (id, sl) (chans s) -> theight s < U32MAX ->
    deliver_slot (fun g m => madd g m b) (Add b) sl = Ok sl' -> slot_tr p s id (AddBlock b) (flush_slot sl')
| tr_remove b rest sl sl' : In (id, sl) (chans s) -> chain s = b :: rest ->
    deliver_slot (fun g m => mremove repaired g m b) (Remove b) sl = Ok sl' -> slot_tr p s id RemoveBlock (flush_slot sl').

Lemma step_slots p s o s' out id sl' :
  step p s o = Ok (s', out) -> In (id, sl') (chans s') -> slot_tr p s id o sl'.
Proof.
  intros H Hin.
  assert (Hsame : forall out0, Ok (s, out0) = Ok (s', out) -> slot_tr p s id o sl').
  { intros out0 E. injection E as <- _. apply tr_same; [|exact Hin]. symmetry. apply (step_frame _ _ _ _ _ H). }
  destruct o; cbn [step] in H.
  - destruct (dbid id0 <=? hwm s) eqn:Eh; [exact (Hsame _ H)|].
    destruct (max_channels p <=? nkeys (chans s)); [exact (Hsame _ H)|].
    destruct (cfind id0 (chans s)); [exact (Hsame _ H)|]. injection H as <- _. cbn [chans with_chans] in Hin.
    apply In_cput in Hin. destruct Hin as [Hin | Hin]; [|apply tr_same; [reflexivity | exact Hin]].
    injection Hin as <- ->. apply tr_new, N.leb_gt, Eh.
  - destruct (cfind id0 (chans s)) as [[c|g' a' m fg fd gh]|] eqn:Ef; [|destruct (cfg_eqb g g'); exact (Hsame _ H)|exact (Hsame _ H)].
    injection H as <- _. cbn [chans with_chans] in Hin. apply In_mapslot in Hin. destruct Hin as [sl [Hin ->]].
    apply In_cput in Hin. destruct Hin as [Hin | Hin]; [|apply tr_flush; [reflexivity | exact Hin]].
    injection Hin as <- ->. exact (tr_setup p s id alias g c Ef).
  - destruct (cfind id0 (chans s)) as [[c|g' a' m fg fd gh]|] eqn:Ef; [| |exact (Hsame _ H)]; injection H as <- _; cbn [chans] in Hin.
    + apply In_cdel in Hin. apply tr_same; [reflexivity | exact Hin].
    + pose proof (tr_forget p s id0 _ _ _ _ _ _ Ef) as Hnew. destruct (forget_flush p).
      * apply In_mapslot in Hin. destruct Hin as [sl [Hin ->]]. apply In_cput in Hin.
        destruct Hin as [Hin | Hin]; [injection Hin as <- ->; exact Hnew | apply tr_flush; [reflexivity | exact Hin]].
      * apply In_cput in Hin.
        destruct Hin as [Hin | Hin]; [injection Hin as <- ->; exact Hnew | apply tr_same; [reflexivity | exact Hin]].
  - injection H as <- _. cbn [chans with_chans] in Hin. destruct (existsb _ (chans s)).
    + apply In_mapslot in Hin. destruct Hin as [sl [Hin ->]]. apply filter_In in Hin. apply tr_flush; [reflexivity | apply Hin].
    + apply filter_In in Hin. apply tr_same; [reflexivity | apply Hin].
  - destruct (U32MAX <=? theight s) eqn:Eh; [discriminate|]. apply N.leb_gt in Eh.
    binv H as l El. injection H as <- _. cbn [chans] in Hin. apply In_mapslot in Hin. destruct Hin as [sl1 [Hin ->]].
    destruct (In_deliver _ _ _ _ El _ _ Hin) as [sl [Hin0 Hd]]. exact (tr_add p s id b sl sl1 Hin0 Eh Hd).
  - destruct (chain s) as [|b rest] eqn:Ech; [exact (Hsame _ H)|].
    binv H as l El. injection H as <- _. cbn [chans] in Hin. apply In_mapslot in Hin. destruct Hin as [sl1 [Hin ->]].
    destruct (In_deliver _ _ _ _ El _ _ Hin) as [sl [Hin0 Hd]]. exact (tr_remove p s id b rest sl sl1 Hin0 Ech Hd).
  - injection H as <- _. cbn [chans with_chans] in Hin. apply In_mapslot in Hin. destruct Hin as [sl [Hin ->]].
    exact (tr_restart p s id sl Hin).
Qed.

Lemma nrun_preserves p (I : node -> Prop) :
  (forall s o s' out, I s -> step p s o = Ok (s', out) -> I s') ->
  forall ops s s', I s -> nrun p s ops = Ok s' -> I s'.
Proof.
  intros Hstep. induction ops as [|o r IH]; intros s s' Hi H; cbn [nrun] in H.
  - inversion H; subst. exact Hi.
  - binv H as x E. destruct x as [s1 out]. eapply IH; [eapply Hstep; eassumption | exact H].
Qed.

Lemma step_hwm p s o s' out : step p s o = Ok (s', out) -> hwm s <= hwm s'.
Proof.
  intros H. destruct (step_frame _ _ _ _ _ H) as [-> _]. destruct o; try apply N.le_refl.
  cbn [hwm_after]. destruct (cfind id (chans s)); [apply N.le_max_l | apply N.le_refl].
Qed.

Lemma forget_raises p s id s' out :
  step p s (Forget id) = Ok (s', out) -> present id s -> dbid id <= hwm s'.
Proof.
  unfold present. intros H Hp. destruct (step_frame _ _ _ _ _ H) as [-> _]. cbn [hwm_after].
  destruct (cfind id (chans s)); [apply N.le_max_r | contradiction].
Qed.

Lemma new_refused p s id : dbid id <= hwm s -> step p s (NewChannel id) = Ok (s, Refused EReuse).
Proof. intros H. cbn [step]. apply N.leb_le in H. rewrite H. reflexivity. Qed.

Lemma step_no_new_low p s o s' out id :
  step p s o = Ok (s', out) -> dbid id <= hwm s -> present id s' -> present id s.
Proof.
  unfold present. intros H Hl Hp. destruct (cfind id (chans s')) as [sl'|] eqn:E; [|contradiction].
  destruct (step_slots _ _ _ _ _ _ _ H (cfind_In _ _ _ E)); try (eapply In_cfind; eassumption); try congruence.
  lia.
Qed.

Lemma nrun_no_new_low p ops s s' id :
  nrun p s ops = Ok s' -> dbid id <= hwm s -> present id s' -> present id s.
Proof.
  intros H Hl. refine (proj2 (nrun_preserves p (fun x => hwm s <= hwm x /\ (present id x -> present id s)) _ ops s s' _ H)).
  - intros s1 o s2 out [H1 H2] E. split; [exact (N.le_trans _ _ _ H1 (step_hwm _ _ _ _ _ E))|].
    intros Hp. apply H2. eapply step_no_new_low; [exact E | lia | exact Hp].
  - split; [apply N.le_refl | auto].
Qed.

Lemma heartbeat_keeps p h id g a m fg fd gh l :
  cfind id l = Some (Ready g a m fg fd gh) -> is_done (m_state m) fg = false ->
  cfind id (filter (fun x : chanid * slot => negb (prunable p h (snd x))) l) = Some (Ready g a m fg fd gh).
Proof. intros Hf Hd. apply cfind_filter_keep; [exact Hf|]. cbn [snd prunable]. rewrite Hd. reflexivity. Qed.

Theorem step_keeps_ready p s o s' out id g a m fg fd gh :
  step p s o = Ok (s', out) -> cfind id (chans s) = Some (Ready g a m fg fd gh) ->
  (o = Heartbeat -> is_done (m_state m) fg = false) ->
  ready_cfg id g s'.
Proof.
  intros H Hf Hd. apply ready_cfg_iff.
  assert (Hc : cfg_at id (chans s) = Some g) by (unfold cfg_at; rewrite Hf; reflexivity).
  assert (Hsame : forall out0, Ok (s, out0) = Ok (s', out) -> cfg_at id (chans s') = Some g).
  { intros out0 E. injection E as <- _. exact Hc. }
  assert (Hput : forall id0 sl, (id = id0 -> slot_cfg sl = Some g) -> cfg_at id (cput id0 sl (chans s)) = Some g).
  { intros id0 sl Hn. unfold cfg_at. rewrite cfind_cput.
    destruct (op_eqb id id0) eqn:E; [apply op_eqb_eq in E; exact (Hn E) | exact Hc]. }
  destruct o; cbn [step] in H.
  - destruct (dbid id0 <=? hwm s); [exact (Hsame _ H)|].
    destruct (max_channels p <=? nkeys (chans s)); [exact (Hsame _ H)|].
    destruct (cfind id0 (chans s)) eqn:Ef; [exact (Hsame _ H)|]. injection H as <- _.
    apply Hput. intros ->. congruence.
  - destruct (cfind id0 (chans s)) as [[c|g' a' m0 fg0 fd0 gh0]|] eqn:Ef; [|destruct (cfg_eqb g0 g'); exact (Hsame _ H)|exact (Hsame _ H)].
    injection H as <- _. cbn [chans with_chans]. rewrite cfg_at_flush. apply Hput. intros ->. congruence.
  - destruct (cfind id0 (chans s)) as [[c|g' a' m0 fg0 fd0 gh0]|] eqn:Ef; [| |exact (Hsame _ H)]; injection H as <- _; cbn [chans].
    + unfold cfg_at. rewrite cfind_cdel. destruct (op_eqb id id0) eqn:E; [apply op_eqb_eq in E; congruence | exact Hc].
    + assert (Hn : cfg_at id (cput id0 (Ready g' a' m0 true fd0 (mkgh true (g_h0 gh0) (g_view gh0))) (chans s)) = Some g).
      { apply Hput. intros ->. cbn [slot_cfg]. congruence. }
      destruct (forget_flush p); [rewrite cfg_at_flush|]; exact Hn.
  - injection H as <- _. cbn [chans with_chans].
    pose proof (heartbeat_keeps p (theight s) _ _ _ _ _ _ _ _ Hf (Hd eq_refl)) as Hk.
    destruct (existsb _ (chans s)); [rewrite cfg_at_flush|]; unfold cfg_at; rewrite Hk; reflexivity.
  - destruct (U32MAX <=? theight s); [discriminate|]. binv H as l El. injection H as <- _. cbn [chans].
    pose proof (deliver_find _ _ _ _ El id) as Hx. rewrite Hf in Hx. destruct Hx as [sl1 [Hs Hx]].
    rewrite cfg_at_flush. unfold cfg_at. rewrite Hx. exact (proj1 (deliver_slot_keeps _ _ _ _ Hs)).
  - destruct (chain s) as [|b rest]; [exact (Hsame _ H)|]. binv H as l El. injection H as <- _. cbn [chans].
    pose proof (deliver_find _ _ _ _ El id) as Hx. rewrite Hf in Hx. destruct Hx as [sl1 [Hs Hx]].
    rewrite cfg_at_flush. unfold cfg_at. rewrite Hx. exact (proj1 (deliver_slot_keeps _ _ _ _ Hs)).
  - injection H as <- _. cbn [chans with_chans]. unfold cfg_at. rewrite cfind_map, Hf. reflexivity.
Qed.

Theorem step_drops_ready p s o s' out id g a m fg fd gh :
  step p s o = Ok (s', out) -> cfind id (chans s) = Some (Ready g a m fg fd gh) ->
  ~ ready_cfg id g s' -> o = Heartbeat /\ is_done (m_state m) fg = true.
Proof.
  intros H Hf Hn.
  destruct (is_done (m_state m) fg) eqn:Ed.
  - split; [|reflexivity]. destruct o; try reflexivity; exfalso; apply Hn; eapply step_keeps_ready; try eassumption; discriminate.
  - exfalso. apply Hn. eapply step_keeps_ready; try eassumption. intros _. exact Ed.
Qed.

Section Rebase.
Variable g : cfg.

Definition blank (h : N) (sw : bool) : state := set_saw (init_state h) sw.

Lemma norm_blank h0 m : norm m = norm (init_mon g h0) ->
  m = mkmon (blank h0 (saw_block (m_state m))) (ounion [] (finputs g)) [].
Proof. destruct m as [[hh fh f d mh uh cl csh osh sw] W Sn]. intros H. inversion H; subst. reflexivity. Qed.

Lemma blank_bwd fx h sw c : apply_backward fx (blank h sw) c =
  match c with FundingInputSpent o | MutualClose _ o => Ok (blank h sw, [], [o]) | _ => Abort end.
Proof. destruct c; reflexivity. Qed.

Definition fis_only (cs : list change) : Prop :=
  forall c, In c cs -> exists o, c = FundingInputSpent o /\ In o (finputs g).

Lemma blank_bwd_all fx h sw cs : forall s1 A R,
  apply_all (apply_backward fx) (blank h sw) cs = Ok (s1, A, R) ->
  s1 = blank h sw /\ A = [] /\ (forall o, ~ In (FundingConfirmed o) cs) /\ (fis_only cs -> incl R (finputs g)).
Proof.
  induction cs as [|c r IH]; intros s1 A R H; cbn [apply_all] in H.
  - inversion H; subst. split; [reflexivity|]. split; [reflexivity|]. split; [intros o [] | intros _ x []].
  - rewrite blank_bwd in H. binv H as x E. destruct x as [[sa Aa] Ra]. binv H as y E2. destruct y as [[sb Ab] Rb]. inversion H; subst. clear H.
    assert (Hc : exists o, Ok (sa, Aa, Ra) = Ok (blank h sw, [], [o]) /\ forall o', c <> FundingConfirmed o').
    { destruct c; try discriminate; eexists; (split; [symmetry; exact E | intros o'; discriminate]). }
    destruct Hc as [o [Hc Hnf]]. inversion Hc; subst. destruct (IH _ _ _ E2) as (-> & -> & G3 & G4).
    repeat split; auto.
    + intros o' [Ho | Ho]; [exact (Hnf _ Ho) | exact (G3 _ Ho)].
    + intros Hf x [<- | Hx]; [|apply G4; [intros c' Hc'; apply Hf; right; exact Hc' | exact Hx]].
      destruct (Hf c (or_introl eq_refl)) as [o' [-> Ho']]. inversion E; subst. exact Ho'.
Qed.

Lemma fis_fwds cs : forall k, fis_only cs -> core_fwds k cs = Ok k.
Proof.
  induction cs as [|c r IH]; intros k Hf; cbn [core_fwds]; [reflexivity|].
  destruct (Hf c (or_introl eq_refl)) as [o [-> _]]. cbn [core_fwd bind]. apply IH. intros c Hc. apply Hf. right; exact Hc.
Qed.

Lemma tx_changes_blank t :
  (exists o, In (FundingConfirmed o) (tx_changes g (None, None) t)) \/ fis_only (tx_changes g (None, None) t).
Proof.
  rewrite (tx_changes_noclosing g (None, None) t eq_refl), closing_prev_nohit by (intros i _; reflexivity).
  cbn [close_changes]. rewrite app_nil_r. destruct (tx_id t =? ftxid g).
  - left. eexists. apply in_or_app. right. left. reflexivity.
  - right. rewrite app_nil_r. intros c Hc. apply in_map_iff in Hc. destruct Hc as [i [<- Hi]]. apply filter_In in Hi.
    exists i. split; [reflexivity | apply mem_op_In, Hi].
Qed.

Lemma steps_blank b : forall k chs k', steps g k b chs k' -> k = (None, None) ->
  (exists o, In (FundingConfirmed o) chs) \/ (fis_only chs).
Proof.
  induction 1 as [|k t r k1 chs k2 Ha Hf Hs IH]; intros ->.
  - right. intros c [].
  - destruct (tx_changes_blank t) as [[o Ho] | Hfis].
    + left. exists o. apply in_or_app. left. exact Ho.
    + rewrite (fis_fwds _ _ Hfis) in Hf. inversion Hf; subst k1.
      destruct (IH eq_refl) as [[o Ho] | Hr].
      * left. exists o. apply in_or_app. right. exact Ho.
      * right. intros c Hc. apply in_app_or in Hc. destruct Hc as [Hc | Hc]; [apply Hfis | apply Hr]; exact Hc.
Qed.

Theorem rebase h0 m b m' :
  norm m = norm (init_mon g h0) -> mremove repaired g m b = Ok m' -> norm m' = norm (init_mon g (h0 - 1)).
Proof.
  intros Hn H. rewrite (norm_blank _ _ Hn) in H. unfold mremove, remove_block in H. cbn [m_state m_watches m_seen] in H.
  binv H as x E. destruct x as [[s4 A] R]. inversion H; subst m'. clear H.
  binv E as chs Ed. apply decode_block_ok in Ed. destruct Ed as [k' Hst].
  change (if rev_order repaired then rev chs else chs) with (rev chs) in E.
  binv E as x Eb. destruct x as [[s2 A2] R2]. change (set_saw (blank h0 _) true) with (blank h0 true) in Eb.
  destruct (blank_bwd_all _ _ _ _ _ _ _ Eb) as (-> & -> & Hnf & HR).
  cbn in E. destruct (h0 =? 0); [discriminate|]. inversion E; subst s4 A R. clear E.
  destruct (steps_blank _ _ _ _ Hst eq_refl) as [[o Ho] | Hfis]; [destruct (Hnf o); apply in_rev in Ho; exact Ho|].
  unfold norm, init_mon. cbn [m_state m_watches m_seen odiff fold_left]. f_equal.
  - apply ounion_absorb; [apply ounion_sorted, osorted_nil|].
    intros x Hx. apply ounion_in. right. apply HR; [|exact Hx]. intros c Hc. apply Hfis, in_rev, Hc.
  - apply odiff_nil_l.
Qed.

End Rebase.

Section Burial.
Variable g : cfg.

(** the monitor has just recorded, in the block it connected last, one of the three events
    that allow pruning: a double-spend of a funding input, a mutual close, or the spend that
    completes the sweep of a unilateral close *)
Definition tip_event (s : state) : Prop :=
  dsh s = Some (height s) \/ mutual_h s = Some (height s)
  \/ (closing_swept_h s = Some (height s) /\ is_closing_swept s = true).

(** [view]: a chain, oldest block first.  The monitor that connects only an initial part [P]
    of it on top of height [h0] records an event in the last block of [P], and that block
    is MIN_DEPTH or more deep in [view] (it has at least MIN_DEPTH - 1 blocks on top). *)
Definition buried (h0 : N) (view : list block) : Prop :=
  exists P Q mP, view = P ++ Q /\ MIN_DEPTH <= N.of_nat (length Q) + 1
    /\ run_adds g (init_mon g h0) P = Ok mP /\ tip_event (m_state mP).

Definition recorded (f : state -> option N) (ev : state -> Prop) : Prop :=
  forall m b m' x, madd g m b = Ok m' -> f (m_state m') = Some x ->
    f (m_state m) = Some x \/ (x = height (m_state m') /\ ev (m_state m')).

Lemma madd_recorded :
  recorded dsh (fun s => dsh s = Some (height s))
  /\ recorded mutual_h (fun s => mutual_h s = Some (height s))
  /\ recorded closing_swept_h (fun s => closing_swept_h s = Some (height s) /\ is_closing_swept s = true).
Proof.
  split; [|split]; intros m b m' x H Hx; destruct (madd_run _ _ _ _ H) as (chs & s2 & [Heq _ E3 E1 E2 E4 _ _]);
    pose proof Hx as Hx'; rewrite E3.
  - rewrite E1 in Hx'. destruct (dfw_some_inv _ _ _ _ Hx') as [Hd | [-> _]]; [left; exact Hd | right; auto].
  - rewrite E2 in Hx'. destruct (existsb is_mutual chs); [injection Hx' as <-; right; auto | left; exact Hx'].
  - rewrite E4 in Hx'. destruct (negb (csw (core_of (m_state m))) && csw (core_of s2)) eqn:Ec; [|left; exact Hx'].
    injection Hx' as <-. right. split; [reflexivity | split; [exact Hx|]].
    rewrite is_closing_swept_csw, (eqm_core _ _ Heq). apply andb_true_iff in Ec. apply Ec.
Qed.

(** a height recorded on a chain of connections was recorded as the tip of an initial part *)
Lemma origin (f : state -> option N) (ev : state -> Prop) h0 :
  f (init_state h0) = None ->
  (forall m b m' x, madd g m b = Ok m' -> f (m_state m') = Some x ->
     f (m_state m) = Some x \/ (x = height (m_state m') /\ ev (m_state m'))) ->
  forall chain m x, run_adds g (init_mon g h0) chain = Ok m -> f (m_state m) = Some x ->
  exists P Q mP, chain = P ++ Q /\ run_adds g (init_mon g h0) P = Ok mP
    /\ x = height (m_state mP) /\ ev (m_state mP).
Proof.
  intros H0 Hstep chain. induction chain as [|b c IH] using rev_ind; intros m x Hr Hx.
  - inversion Hr; subst. cbn [init_mon m_state] in Hx. congruence.
  - rewrite run_adds_snoc in Hr. binv Hr as m1 Hr1.
    destruct (Hstep _ _ _ _ Hr Hx) as [Hold | [Hnew Hev]].
    + destruct (IH _ _ Hr1 Hold) as [P [Q [mP (E1 & E2 & E3 & E4)]]].
      exists P, (Q ++ [b]), mP. rewrite E1, <- app_assoc. repeat split; assumption.
    + exists (c ++ [b]), [], m. rewrite app_nil_r. repeat split; try assumption.
      rewrite run_adds_snoc, Hr1. exact Hr.
Qed.

Lemma deep_origin f ev h0 chain m fg :
  f (init_state h0) = None -> recorded f ev -> (forall s, ev s -> tip_event s) ->
  run_adds g (init_mon g h0) chain = Ok m -> deep (m_state m) fg (f (m_state m)) = true ->
  fg = true /\ buried h0 chain.
Proof.
  intros H0 Hrec Hev Hr Hd. unfold deep in Hd. apply andb_true_iff in Hd. destruct Hd as [Hd ->]. split; [reflexivity|].
  destruct (f (m_state m)) as [x|] eqn:Ex; [|discriminate]. apply N.leb_le in Hd. cbn [depth_of] in Hd.
  destruct (origin f ev h0 H0 Hrec chain m x Hr Ex) as (P & Q & mP & E1 & E2 & E3 & E4).
  exists P, Q, mP. split; [exact E1|]. split; [|split; [exact E2 | apply Hev, E4]].
  rewrite (run_adds_height _ _ _ _ Hr), E3, (run_adds_height _ _ _ _ E2), E1, app_length in Hd.
  cbn [init_mon m_state init_state height] in Hd. revert Hd. generalize MIN_DEPTH. intros. lia.
Qed.

Theorem done_buried h0 chain m fg :
  run_adds g (init_mon g h0) chain = Ok m -> is_done (m_state m) fg = true ->
  fg = true /\ buried h0 chain.
Proof.
  intros Hr Hd. destruct madd_recorded as (R1 & R2 & R3).
  unfold is_done in Hd. apply orb_true_iff in Hd. destruct Hd as [Hd | Hd]; [apply orb_true_iff in Hd; destruct Hd as [Hd | Hd]|].
  - apply (deep_origin dsh _ h0 chain m fg eq_refl R1); [|exact Hr | exact Hd]. intros s E. left. exact E.
  - apply (deep_origin mutual_h _ h0 chain m fg eq_refl R2); [|exact Hr | exact Hd]. intros s E. right; left. exact E.
  - apply (deep_origin closing_swept_h _ h0 chain m fg eq_refl R3); [|exact Hr | exact Hd]. intros s E. right; right. exact E.
Qed.

Corollary reach_done_buried h0 tf m fg :
  Reach g h0 tf m -> is_done (m_state m) fg = true -> fg = true /\ buried h0 (rev tf).
Proof.
  intros [_ [m0 [Hr Hn]]] Hd. destruct (norm_views _ _ Hn) as (_ & _ & _ & Hdone & _).
  rewrite <- Hdone in Hd. eapply done_buried; eassumption.
Qed.

End Burial.

Definition slot_inv (h : N) (ch : list block) (sl : slot) : Prop :=
  match sl with
  | Stub _ => True
  | Ready g a m fg fd gh =>
      Reach g (g_h0 gh) (g_view gh) m
      /\ g_h0 gh + N.of_nat (length (g_view gh)) = h
      /\ exists older, ch = g_view gh ++ older
  end.
Definition ninv (s : node) : Prop :=
  theight s <= U32MAX /\ forall id sl, In (id, sl) (chans s) -> slot_inv (theight s) (chain s) sl.

Lemma slot_inv_flush h ch sl : slot_inv h ch sl -> slot_inv h ch (flush_slot sl).
Proof. destruct sl; exact (fun H => H). Qed.
Lemma slot_inv_restart h ch sl : slot_inv h ch sl -> slot_inv h ch (restart_slot sl).
Proof. destruct sl; exact (fun H => H). Qed.

Lemma reach_init g h : Reach g h [] (init_mon g h).
Proof. split; [reflexivity|]. exists (init_mon g h). split; reflexivity. Qed.

Lemma reach_nil_norm g h m : Reach g h [] m -> norm m = norm (init_mon g h).
Proof. intros [_ [m0 [Hr Hn]]]. cbn [rev] in Hr. inversion Hr; subst. symmetry. exact Hn. Qed.

Lemma add_slot_inv h ch b sl sl' :
  slot_inv h ch sl -> h < U32MAX -> block_ok_for b sl = true ->
  deliver_slot (fun g m => madd g m b) (Add b) sl = Ok sl' -> slot_inv (h + 1) (b :: ch) sl'.
Proof.
  destruct sl as [c|g a m fg fd gh]; [intros _ _ _ H; inversion H; exact I|].
  intros (H1 & H2 & [older H5]) Hlt Hok Hd.
  destruct (deliver_slot_ready _ _ _ _ _ _ _ _ _ Hd) as [m' [Hm ->]]. cbn [gh_push slot_inv g_h0 g_view].
  cbn [block_ok_for] in Hok. apply andb_true_iff in Hok. destruct Hok as [Hc Hwf].
  destruct (reach_add g (g_h0 gh) (g_view gh) m b H1 Hc Hwf) as [m2 [Hr HR]]; [lia|]. rewrite Hm in Hr. injection Hr as <-.
  split; [exact HR|]. split; [cbn [length]; lia|]. exists older. rewrite H5. reflexivity.
Qed.

Lemma remove_slot_inv h b rest sl sl' :
  slot_inv h (b :: rest) sl ->
  deliver_slot (fun g m => mremove repaired g m b) (Remove b) sl = Ok sl' -> slot_inv (h - 1) rest sl'.
Proof.
  destruct sl as [c|g a m fg fd gh]; [intros _ H; inversion H; exact I|].
  intros (H1 & H2 & [older H5]) Hd.
  destruct (deliver_slot_ready _ _ _ _ _ _ _ _ _ Hd) as [m' [Hm ->]]. cbn [gh_push].
  destruct (g_view gh) as [|t v] eqn:Ev; cbn [slot_inv g_h0 g_view].
  - (* below the height at which the channel was set up *)
    pose proof (rebase g (g_h0 gh) m b m' (reach_nil_norm _ _ _ H1) Hm) as Hn.
    split; [|split; [cbn [length] in *; lia | exists rest; reflexivity]].
    split; [reflexivity|]. exists (init_mon g (g_h0 gh - 1)). split; [reflexivity | symmetry; exact Hn].
  - cbn [app] in H5. inversion H5; subst t rest.
    destruct (reach_remove g (g_h0 gh) v m b H1) as [mp [Hr HR]]. rewrite Hm in Hr. injection Hr as ->.
    split; [exact HR|]. split; [cbn [length] in H2; lia|]. exists older. reflexivity.
Qed.

Theorem step_inv p s o s' out :
  ninv s -> op_ok s o = true -> step p s o = Ok (s', out) -> ninv s'.
Proof.
  intros [Hh Hs] Hok H. destruct (step_frame _ _ _ _ _ H) as (_ & Ht & Hb). split; [exact (Hb Hh)|].
  intros id sl' Hin. rewrite (f_equal fst Ht : theight s' = _), (f_equal snd Ht : chain s' = _).
  destruct (step_slots _ _ _ _ _ _ _ H Hin) as [o sl -> Hi|o sl -> Hi|sl Hi| |a g c|g a m fg fd gh Hf|b sl sl1 Hi Hlt Hd|b rest sl sl1 Hi Ech Hd];
    cbn [fst snd tip_after].
  - exact (Hs _ _ Hi).
  - apply slot_inv_flush, (Hs _ _ Hi).
  - apply slot_inv_restart, (Hs _ _ Hi).
  - exact I.
  - split; [apply reach_init|]. split; [apply N.add_0_r | exists (chain s); reflexivity].
  - exact (Hs _ _ (cfind_In _ _ _ Hf)).
  - apply slot_inv_flush. cbn [op_ok] in Hok. rewrite forallb_forall in Hok.
    exact (add_slot_inv _ _ _ _ _ (Hs _ _ Hi) Hlt (Hok _ Hi) Hd).
  - apply slot_inv_flush. rewrite Ech. specialize (Hs _ _ Hi). rewrite Ech in Hs. exact (remove_slot_inv _ _ _ _ _ Hs Hd).
Qed.

Lemma ninv_init h : h <= U32MAX -> ninv (init_node h).
Proof. intros H. split; [exact H | intros id sl []]. Qed.

Theorem nrun_inv p ops : forall s s',
  ninv s -> hist_admissible p s ops = true -> nrun p s ops = Ok s' -> ninv s'.
Proof.
  induction ops as [|o r IH]; intros s s' Hi Ha Hr; cbn [nrun hist_admissible] in *.
  - inversion Hr; subst. exact Hi.
  - apply andb_true_iff in Ha. destruct Ha as [Ho Ha].
    binv Hr as x E. destruct x as [s1 out]. rewrite E in Ha.
    eapply IH; [eapply step_inv; eassumption | exact Ha | exact Hr].
Qed.

(** the forget flags, in every history (no assumption on the blocks): the stored flag is never
    ahead of the one in memory, and the flag is set only after the node asked *)
Definition flags_ok (sl : slot) : Prop :=
  match sl with
  | Ready _ _ _ fg fd gh => (fd = true -> fg = true) /\ (fg = true -> g_asked gh = true)
  | Stub _ => True
  end.
Definition finv (s : node) : Prop := forall id sl, In (id, sl) (chans s) -> flags_ok sl.

Lemma flags_flush sl : flags_ok sl -> flags_ok (flush_slot sl).
Proof. destruct sl; cbn; tauto. Qed.
Lemma flags_restart sl : flags_ok sl -> flags_ok (restart_slot sl).
Proof. destruct sl; cbn; tauto. Qed.
Lemma flags_deliver f o sl sl' : deliver_slot f o sl = Ok sl' -> flags_ok sl -> flags_ok sl'.
Proof.
  destruct sl as [c|g a m fg fd gh]; [intros H; inversion H; auto|]. intros H.
  pose proof (proj2 (deliver_slot_keeps _ _ _ _ H)) as Ea.
  destruct (deliver_slot_ready _ _ _ _ _ _ _ _ _ H) as [m' [_ ->]]. cbn [flags_ok slot_asked] in *. rewrite Ea. auto.
Qed.

Lemma step_finv p s o s' out : finv s -> step p s o = Ok (s', out) -> finv s'.
Proof.
  intros Hs H id sl' Hin.
  destruct (step_slots _ _ _ _ _ _ _ H Hin) as [o sl _ Hi|o sl _ Hi|sl Hi| |a g c|g a m fg fd gh Hf|b sl sl1 Hi _ Hd|b rest sl sl1 Hi _ Hd].
  - exact (Hs _ _ Hi).
  - apply flags_flush, (Hs _ _ Hi).
  - apply flags_restart, (Hs _ _ Hi).
  - exact I.
  - split; discriminate.
  - split; [reflexivity..].
  - apply flags_flush. exact (flags_deliver _ _ _ _ Hd (Hs _ _ Hi)).
  - apply flags_flush. exact (flags_deliver _ _ _ _ Hd (Hs _ _ Hi)).
Qed.

Lemma finv_reach p h ops s : nrun p (init_node h) ops = Ok s -> finv s.
Proof. apply (nrun_preserves p finv (step_finv p)). intros id sl []. Qed.

Theorem prune_sound_inv p s o s' out id g a m fg fd gh :
  ninv s -> finv s ->
  step p s o = Ok (s', out) -> cfind id (chans s) = Some (Ready g a m fg fd gh) -> ~ ready_cfg id g s' ->
  o = Heartbeat /\ fg = true /\ g_asked gh = true
  /\ (exists older, chain s = g_view gh ++ older)
  /\ buried g (g_h0 gh) (rev (g_view gh)) /\ consistent g (rev (g_view gh)) = true.
Proof.
  intros [_ Hs] Hfl Hst Hf Hn.
  destruct (step_drops_ready _ _ _ _ _ _ _ _ _ _ _ _ Hst Hf Hn) as [Ho Hd].
  pose proof (Hs _ _ (cfind_In _ _ _ Hf)) as (H1 & _ & H5).
  destruct (Hfl _ _ (cfind_In _ _ _ Hf)) as [_ H3].
  destruct (reach_done_buried _ _ _ _ _ H1 Hd) as [Hfg Hb].
  split; [exact Ho|]. split; [exact Hfg|]. split; [apply H3; exact Hfg|]. split; [exact H5|]. split; [exact Hb | apply H1].
Qed.

Definition ready_in (id : chanid) (g : cfg) (s : node) : Prop :=
  exists a m fg fd gh, In (id, Ready g a m fg fd gh) (chans s).
Definition asked_in (id : chanid) (g : cfg) (s : node) : Prop :=
  exists a m fg fd gh, In (id, Ready g a m fg fd gh) (chans s) /\ g_asked gh = true.

Lemma asked_in_iff id g s :
  asked_in id g s <-> exists sl, In (id, sl) (chans s) /\ slot_cfg sl = Some g /\ slot_asked sl = true.
Proof.
  split.
  - intros (a & m & fg & fd & gh & Hin & Ha). eexists. split; [exact Hin | split; [reflexivity | exact Ha]].
  - intros [[c|g' a m fg fd gh] (Hin & Hc & Ha)]; [discriminate|]. injection Hc as ->. exists a, m, fg, fd, gh. auto.
Qed.

Lemma step_asked p s o s' out id g :
  step p s o = Ok (s', out) -> asked_in id g s' -> (o = Forget id /\ ready_in id g s) \/ asked_in id g s.
Proof.
  intros H Ha. apply asked_in_iff in Ha. destruct Ha as [sl' (Hin & Hc & Ha)]. rewrite asked_in_iff.
  destruct (step_slots _ _ _ _ _ _ _ H Hin) as [o sl _ Hi|o sl _ Hi|sl Hi| |a g0 c|g0 a m fg fd gh Hf|b sl sl1 Hi _ Hd|b rest sl sl1 Hi _ Hd];
    try discriminate.
  - right. exists sl. auto.
  - right. exists sl. rewrite slot_cfg_flush in Hc. rewrite slot_asked_flush in Ha. auto.
  - right. exists sl. rewrite slot_cfg_restart in Hc. rewrite slot_asked_restart in Ha. auto.
  - left. split; [reflexivity|]. injection Hc as ->. exists a, m, fg, fd, gh. apply cfind_In, Hf.
  - right. exists sl. rewrite slot_cfg_flush in Hc. rewrite slot_asked_flush in Ha.
    destruct (deliver_slot_keeps _ _ _ _ Hd) as [<- <-]. auto.
  - right. exists sl. rewrite slot_cfg_flush in Hc. rewrite slot_asked_flush in Ha.
    destruct (deliver_slot_keeps _ _ _ _ Hd) as [<- <-]. auto.
Qed.

Theorem asked_history p ops : forall s s' id g,
  nrun p s ops = Ok s' -> asked_in id g s' ->
  asked_in id g s
  \/ exists ops1 ops2 s1, ops = ops1 ++ Forget id :: ops2 /\ nrun p s ops1 = Ok s1 /\ ready_in id g s1.
Proof.
  induction ops as [|o r IH]; intros s s' id g Hr Ha; cbn [nrun] in Hr.
  - inversion Hr; subst. left; exact Ha.
  - binv Hr as x E. destruct x as [s1 out].
    destruct (IH _ _ _ _ Hr Ha) as [Ha1 | (ops1 & ops2 & s2 & E1 & E2 & E3)].
    + destruct (step_asked _ _ _ _ _ _ _ E Ha1) as [[-> Hrd] | Ha0]; [|left; exact Ha0].
      right. exists [], r, s. split; [reflexivity|]. split; [reflexivity | exact Hrd].
    + right. exists (o :: ops1), ops2, s2. split; [rewrite E1; reflexivity|]. split; [|exact E3].
      cbn [nrun]. rewrite E. cbn [bind]. exact E2.
Qed.

Definition quiet (o : nop) : bool := match o with Heartbeat | Restart => true | _ => false end.

Lemma quiet_step p s o s' out id g a m fg fd gh :
  quiet o = true -> step p s o = Ok (s', out) -> cfind id (chans s) = Some (Ready g a m fg fd gh) ->
  (fd = true -> fg = true) -> is_done (m_state m) fg = false ->
  exists fg' fd', cfind id (chans s') = Some (Ready g a m fg' fd' gh)
    /\ (fd' = true -> fg' = true) /\ is_done (m_state m) fg' = false.
Proof.
  intros Hq H Hf Hfl Hd. destruct o; try discriminate; cbn [step] in H; inversion H; subst; cbn [chans with_chans].
  - pose proof (heartbeat_keeps p (theight s) _ _ _ _ _ _ _ _ Hf Hd) as Hk.
    destruct (existsb _ (chans s)); [rewrite cfind_flush, Hk; cbn; exists fg, fg; auto | rewrite Hk; exists fg, fd; auto].
  - rewrite cfind_map, Hf. cbn. exists fd, fd. split; [reflexivity|]. split; [auto|].
    destruct fd; [rewrite (Hfl eq_refl) in Hd; exact Hd|].
    unfold is_done, deep. rewrite !andb_false_r. reflexivity.
Qed.

Theorem survives_quiet p ops : forall s s' id g a m fg fd gh,
  forallb quiet ops = true -> nrun p s ops = Ok s' ->
  cfind id (chans s) = Some (Ready g a m fg fd gh) -> (fd = true -> fg = true) ->
  is_done (m_state m) fg = false ->
  exists fg' fd', cfind id (chans s') = Some (Ready g a m fg' fd' gh) /\ is_done (m_state m) fg' = false.
Proof.
  induction ops as [|o r IH]; intros s s' id g a m fg fd gh Hq Hr Hf Hfl Hd; cbn [nrun forallb] in *.
  - inversion Hr; subst. eauto.
  - apply andb_true_iff in Hq. destruct Hq as [Hq1 Hq2]. binv Hr as x E. destruct x as [s1 out].
    destruct (quiet_step _ _ _ _ _ _ _ _ _ _ _ _ Hq1 E Hf Hfl Hd) as [fg1 [fd1 (G1 & G2 & G3)]].
    eapply IH; eassumption.
Qed.

Theorem survives p h ops0 s ops s' id g a m fg fd gh :
  nrun p (init_node h) ops0 = Ok s -> forallb quiet ops = true -> nrun p s ops = Ok s' ->
  cfind id (chans s) = Some (Ready g a m fg fd gh) -> is_done (m_state m) fg = false ->
  exists fg' fd', cfind id (chans s') = Some (Ready g a m fg' fd' gh) /\ is_done (m_state m) fg' = false.
Proof.
  intros H0 Hq Hr Hf Hd. destruct (finv_reach _ _ _ _ H0 _ _ (cfind_In _ _ _ Hf)) as [Hfl _].
  eapply survives_quiet; eassumption.
Qed.

Section Meaning.
Variable g : cfg.

Definition spent_on (P : list block) (o : outpoint) : Prop :=
  exists b t, In b P /\ In t b /\ In o (tx_ins t).

Lemma spent_after_on P o : In o (spent_after [] (concat P)) -> spent_on P o.
Proof.
  intros H. apply in_spent_after in H. destruct H as [[] | H]. apply in_concat in H. destruct H as [l [Hl Ho]].
  apply in_map_iff in Hl. destruct Hl as [t [<- Ht]]. apply in_concat in Ht. destruct Ht as [b [Hb Ht]]. exists b, t. auto.
Qed.

Lemma consistent_prefix P Q : consistent g (P ++ Q) = true -> consistent g P = true.
Proof. unfold consistent. rewrite concat_app, txs_ok_app. intros H. apply andb_true_iff in H. tauto. Qed.

Theorem event_meaning h0 P mP :
  consistent g P = true -> run_adds g (init_mon g h0) P = Ok mP ->
  let s := m_state mP in
  (dsh s <> None -> exists i, In i (finputs g) /\ spent_on P i)
  /\ (mutual_h s <> None -> spent_on P (fund g))
  /\ (is_closing_swept s = true -> exists cl, clo s = Some cl
        /\ spent_on P (fund g)
        /\ (forall v b, c_our cl = Some (v, b) -> spent_on P (c_txid cl, v))
        /\ (forall v, In v (htlc_idx cl) -> spent_on P (c_txid cl, v))
        /\ (forall o, In o (slos cl) -> spent_on P o)).
Proof.
  intros Hc Hr. pose proof (run_adds_inv g _ _ _ _ _ (MInv_init g h0) Hc Hr) as HM. cbv zeta.
  pose proof (M_k _ _ _ _ HM) as HK. split; [|split].
  - intros Hd. destruct (dsh (m_state mP)) as [x|] eqn:E; [|contradiction].
    destruct (M_dsh _ _ _ _ HM x E) as [_ [i [Hi HS]]]. exists i. split; [exact Hi | apply spent_after_on; exact HS].
  - intros Hm. apply spent_after_on. apply (M_mut _ _ _ _ HM). exact Hm.
  - intros Hs. unfold is_closing_swept in Hs. destruct (clo (m_state mP)) as [cl|] eqn:Ecl; [|discriminate].
    exists cl. split; [reflexivity|].
    assert (Hsnd : snd (core_of (m_state mP)) = Some cl) by (unfold core_of; cbn [snd]; exact Ecl).
    unfold all_spent in Hs. apply andb_true_iff in Hs. destruct Hs as [Hs Hs3]. apply andb_true_iff in Hs. destruct Hs as [Hs1 Hs2].
    split; [apply spent_after_on; apply (K_clo _ _ _ _ HK); rewrite Hsnd; discriminate|].
    split; [|split].
    + intros v b Ho. rewrite Ho in Hs1. subst b. apply spent_after_on, (K_spent _ _ _ _ HK cl (c_txid cl, v) Hsnd).
      left. split; [reflexivity | left; exact Ho].
    + intros v Hv. apply spent_after_on, (K_spent _ _ _ _ HK cl (c_txid cl, v) Hsnd). left. split; [reflexivity | right].
      apply hflag_in in Hv. cbn [snd]. destruct (hflag cl v) as [[|]|] eqn:Ef; [reflexivity | | contradiction].
      destruct (aflag_all N.eqb _ _ Hs2 Ef).
    + intros o Ho. apply spent_after_on, (K_spent _ _ _ _ HK cl o Hsnd). right.
      apply sflag_in in Ho. destruct (sflag cl o) as [[|]|] eqn:Ef; [reflexivity | | contradiction].
      destruct (aflag_all op_eqb _ _ Hs3 Ef).
Qed.

Definition event_on (P : list block) : Prop :=
  (exists i, In i (finputs g) /\ spent_on P i)
  \/ spent_on P (fund g).

Corollary buried_meaning h0 view :
  consistent g view = true -> buried g h0 view ->
  exists P Q, view = P ++ Q /\ MIN_DEPTH <= N.of_nat (length Q) + 1 /\ event_on P.
Proof.
  intros Hc (P & Q & mP & E1 & E2 & E3 & E4). exists P, Q. split; [exact E1|]. split; [exact E2|].
  rewrite E1 in Hc. pose proof (consistent_prefix _ _ Hc) as HcP.
  destruct (event_meaning h0 P mP HcP E3) as (M1 & M2 & M3). destruct E4 as [E4 | [E4 | [_ E4]]].
  - left. apply M1. rewrite E4. discriminate.
  - right. apply M2. rewrite E4. discriminate.
  - right. destruct (M3 E4) as [cl [_ [H _]]]. exact H.
Qed.

End Meaning.

(** with forget_channel writing the tracker entry (the repaired code), the store is never behind:
    in every reachable state the stored forget flag equals the one in memory, so a restart
    restores exactly the state that was running *)
Definition synced (sl : slot) : Prop :=
  match sl with Ready _ _ _ fg fd _ => fd = fg | Stub _ => True end.
Definition sinv (s : node) : Prop := forall id sl, In (id, sl) (chans s) -> synced sl.

Lemma synced_flush sl : synced (flush_slot sl).
Proof. destruct sl; cbn; auto. Qed.
Lemma synced_restart_id sl : synced sl -> restart_slot sl = sl.
Proof. destruct sl as [c|g a m fg fd gh]; cbn; [reflexivity|]. intros ->. reflexivity. Qed.

Lemma step_sinv p : forget_flush p = true -> forall s o s' out, sinv s -> step p s o = Ok (s', out) -> sinv s'.
Proof.
  intros Hp s o s' out Hs H id sl' Hin.
  destruct (step_slots _ _ _ _ _ _ _ H Hin) as [o sl _ Hi|o sl _ Hi|sl Hi| |a g c|g a m fg fd gh Hf|b sl sl1 Hi _ Hd|b rest sl sl1 Hi _ Hd];
    try apply synced_flush.
  - exact (Hs _ _ Hi).
  - rewrite (synced_restart_id _ (Hs _ _ Hi)). exact (Hs _ _ Hi).
  - exact I.
  - reflexivity.
  - cbn [synced]. rewrite Hp. reflexivity.
Qed.

Lemma map_slot_id (f : slot -> slot) (l : cmap) :
  (forall id sl, In (id, sl) l -> f sl = sl) -> map (fun x => (fst x, f (snd x))) l = l.
Proof.
  induction l as [|[k w] r IH]; intros H; cbn [map fst snd]; [reflexivity|].
  rewrite (H k w (or_introl eq_refl)), IH; [reflexivity|]. intros id sl Hin. apply (H id sl). right; exact Hin.
Qed.

Lemma sinv_restart p s : sinv s -> step p s Restart = Ok (s, Done).
Proof.
  intros Hs. cbn [step]. rewrite map_slot_id; [destruct s; reflexivity|].
  intros id sl Hin. apply synced_restart_id. eapply Hs; exact Hin.
Qed.

(** with htlcs_fulfilled writing the node entry, what the signer knows - in memory and in the
    store - is exactly what it was handed, after any history, restarts included *)
Definition pinv (s : pnode) : Prop := known s = given s /\ known_disk s = known s.

Lemma pstep_pinv p s o s' out : pinv s -> pstep true p s o = Ok (s', out) -> pinv s'.
Proof.
  intros [H1 H2] H. destruct o; cbn [pstep] in H.
  - binv H as x E. destruct x as [n' out']. inversion H; subst. clear H. unfold pinv. cbn [known known_disk given].
    assert (Hk : match o with Restart => known_disk s | _ => known s end = known s) by (destruct o; auto).
    rewrite Hk. split; [exact H1|]. destruct (writes_node_entry (pn s) o); [reflexivity | exact H2].
  - binv H as x E. destruct x as [n' out']. inversion H; subst. split; assumption.
  - inversion H; subst. unfold pinv. cbn [known known_disk given]. rewrite H1. auto.
  - inversion H; subst. unfold pinv. cbn [known known_disk given]. auto.
Qed.

Lemma prun_pinv p ops : forall s s', pinv s -> prun true p s ops = Ok s' -> pinv s'.
Proof.
  induction ops as [|o r IH]; intros s s' Hi Hr; cbn [prun] in Hr.
  - inversion Hr; subst. exact Hi.
  - binv Hr as x E. destruct x as [s1 out]. eapply IH; [eapply pstep_pinv; eassumption | exact Hr].
Qed.

