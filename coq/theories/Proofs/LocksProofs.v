(** C20 — proofs about lock programs (Model/Locks.v): deadlock freedom of rank-ordered,
    well-bracketed programs under every schedule and for any number of threads; atomicity of
    the critical sections of a protected value; transfer to whole requests. *)
From VLS Require Import Model.Locks.
From VLS Require Base.Eqb.

Lemma lock_eqb_eq (a b : lock) : lock_eqb a b = true <-> a = b.
Proof. exact (Eqb.prod_eqb_ok Eqb.Eqb_N_ok Eqb.Eqb_N_ok a b). Qed.

Lemma lock_eqb_refl (a : lock) : lock_eqb a a = true.
Proof. apply lock_eqb_eq. reflexivity. Qed.

Lemma lock_eqb_neq (a b : lock) : lock_eqb a b = false <-> a <> b.
Proof. rewrite <- lock_eqb_eq. symmetry. apply not_true_iff_false. Qed.

Lemma mem_In (l : lock) (h : list lock) : mem l h = true <-> In l h.
Proof. exact (Eqb.existsb_eqb_in lock_eqb lock_eqb_eq l h). Qed.

Lemma mem_false (l : lock) (h : list lock) : mem l h = false <-> ~ In l h.
Proof. rewrite <- mem_In. symmetry. apply not_true_iff_false. Qed.

Lemma In_drop (x l : lock) (h : list lock) : In x (drop l h) <-> In x h /\ x <> l.
Proof.
  unfold drop. rewrite filter_In, negb_true_iff, lock_eqb_neq. tauto.
Qed.

Definition hstep (h : list lock) (i : instr) : list lock :=
  match i with Acq l => l :: h | Rel l => drop l h | Touch _ => h end.

Definition ranked_ok (lt : lock -> lock -> bool) (h : list lock) (i : instr) : bool :=
  match i with Acq l => forallb (fun x => lt x l) h | Rel l => mem l h | Touch _ => true end.
Definition guarded_ok (h : list lock) (i : instr) : bool :=
  match i with Touch o => mem o h | _ => true end.

Lemma ranked_cons lt h i r : ranked lt h (i :: r) = ranked_ok lt h i && ranked lt (hstep h i) r.
Proof. destruct i; reflexivity. Qed.

Lemma guarded_cons h i r : guarded h (i :: r) = guarded_ok h i && guarded (hstep h i) r.
Proof. destruct i; reflexivity. Qed.

Lemma nth_upd_eq (c : config) (n : nat) (t t' : thread) :
  nth_error c n = Some t -> nth_error (upd c n t') n = Some t'.
Proof.
  revert n. induction c as [|x c IH]; intros [|n] H; cbn in *; try discriminate.
  - reflexivity.
  - apply IH. exact H.
Qed.

Lemma nth_upd_neq (c : config) (n m : nat) (t' : thread) :
  n <> m -> nth_error (upd c n t') m = nth_error c m.
Proof.
  revert n m. induction c as [|x c IH]; intros [|n] [|m] H; cbn; try reflexivity.
  - contradiction.
  - apply IH. intros E. apply H. rewrite E. reflexivity.
Qed.

Lemma nth_upd c n t t' m :
  nth_error c n = Some t ->
  nth_error (upd c n t') m = if Nat.eqb n m then Some t' else nth_error c m.
Proof.
  intros H. destruct (Nat.eqb_spec n m) as [<-|E]; [exact (nth_upd_eq _ _ _ _ H) | apply nth_upd_neq, E].
Qed.

Lemma In_owned (l : lock) (c : config) :
  In l (owned c) <-> exists m t, nth_error c m = Some t /\ In l (held t).
Proof.
  unfold owned. rewrite in_flat_map. split.
  - intros [t [Ht Hl]]. apply In_nth_error in Ht. destruct Ht as [m Hm]. exists m, t. tauto.
  - intros [m [t [Hm Hl]]]. exists t. split; [eapply nth_error_In; exact Hm|exact Hl].
Qed.

Inductive tstep_spec (busy : list lock) (t : thread) : instr -> thread -> Prop :=
| ts_acq l r : rest t = Acq l :: r -> mem l busy = false ->
               tstep_spec busy t (Acq l) (mkT (l :: held t) r)
| ts_rel l r : rest t = Rel l :: r -> mem l (held t) = true ->
               tstep_spec busy t (Rel l) (mkT (drop l (held t)) r)
| ts_touch o r : rest t = Touch o :: r -> tstep_spec busy t (Touch o) (mkT (held t) r).

Lemma tstep_cases (busy : list lock) (t : thread) (i : instr) (t' : thread) :
  tstep busy t = Some (i, t') -> tstep_spec busy t i t'.
Proof.
  unfold tstep. destruct (rest t) as [|[l|l|o] r] eqn:E; try discriminate.
  - destruct (mem l busy) eqn:M; [discriminate|]. intros H. injection H as <- <-. constructor; assumption.
  - destruct (mem l (held t)) eqn:M; [|discriminate]. intros H. injection H as <- <-. constructor; assumption.
  - intros H. injection H as <- <-. constructor. exact E.
Qed.

(** [tstep_cases] as one [match] on the instruction; nothing in the development uses it *)
Corollary tstep_inv (busy : list lock) (t : thread) (i : instr) (t' : thread) :
  tstep busy t = Some (i, t') ->
  match i with
  | Acq l => exists r, rest t = Acq l :: r /\ mem l busy = false /\ t' = mkT (l :: held t) r
  | Rel l => exists r, rest t = Rel l :: r /\ mem l (held t) = true /\ t' = mkT (drop l (held t)) r
  | Touch o => exists r, rest t = Touch o :: r /\ t' = mkT (held t) r
  end.
Proof. intros H. apply tstep_cases in H. destruct H; eexists; repeat split; assumption. Qed.

Lemma tstep_rest_held (busy : list lock) (t : thread) (i : instr) (t' : thread) :
  tstep busy t = Some (i, t') -> rest t = i :: rest t' /\ held t' = hstep (held t) i.
Proof. intros H. apply tstep_cases in H. destruct H; split; assumption || reflexivity. Qed.

Lemma tstep_rest (busy : list lock) (t : thread) (i : instr) (t' : thread) :
  tstep busy t = Some (i, t') -> rest t = i :: rest t'.
Proof. intros H. exact (proj1 (tstep_rest_held _ _ _ _ H)). Qed.

Lemma tstep_held busy t i t' l :
  tstep busy t = Some (i, t') -> In l (held t') -> In l (held t) \/ ~ In l busy.
Proof.
  intros H L. apply tstep_cases in H. destruct H as [a r _ Hfree|a r _ _|a r _]; cbn [held] in L.
  - destruct L as [<-|L]; [right; apply mem_false, Hfree | left; exact L].
  - left. apply In_drop in L. apply L.
  - left. exact L.
Qed.

Lemma step_intro c n t i t' :
  nth_error c n = Some t -> tstep (owned c) t = Some (i, t') -> step c (n, i) (upd c n t').
Proof. intros Hn Hs. exists t, t'. auto. Qed.

Definition excl (c : config) : Prop :=
  forall m1 m2 t1 t2 l, nth_error c m1 = Some t1 -> nth_error c m2 = Some t2 ->
                        In l (held t1) -> In l (held t2) -> m1 = m2.
Definition all_threads (P : thread -> Prop) (c : config) : Prop :=
  forall m t, nth_error c m = Some t -> P t.

Lemma excl_step (c : config) (e : event) (c' : config) : excl c -> step c e c' -> excl c'.
Proof.
  intros Hx [t [t' [Hn [Hs ->]]]]. destruct e as [n i]. cbn [fst snd] in *.
  assert (Hnew : forall m u l, nth_error c m = Some u -> In l (held t') -> In l (held u) -> n = m).
  { intros m u l Hm L' Lu. destruct (tstep_held _ _ _ _ _ Hs L') as [L|L].
    - exact (Hx _ _ _ _ _ Hn Hm L Lu).
    - exfalso. apply L. apply In_owned. exists m, u. auto. }
  intros m1 m2 t1 t2 l H1 H2 L1 L2.
  rewrite (nth_upd _ _ _ _ _ Hn) in H1. rewrite (nth_upd _ _ _ _ _ Hn) in H2.
  destruct (Nat.eqb_spec n m1) as [<-|E1], (Nat.eqb_spec n m2) as [<-|E2].
  - reflexivity.
  - injection H1 as <-. exact (Hnew _ _ _ H2 L1 L2).
  - injection H2 as <-. symmetry. exact (Hnew _ _ _ H1 L2 L1).
  - exact (Hx _ _ _ _ _ H1 H2 L1 L2).
Qed.

Lemma all_threads_step (P : thread -> Prop) (c : config) (e : event) (c' : config) :
  (forall busy t i t', P t -> tstep busy t = Some (i, t') -> P t') ->
  all_threads P c -> step c e c' -> all_threads P c'.
Proof.
  intros HP Ha [t [t' [Hn [Hs ->]]]] m tm Hm. rewrite (nth_upd _ _ _ _ _ Hn) in Hm.
  destruct (Nat.eqb (fst e) m); [|exact (Ha _ _ Hm)].
  injection Hm as <-. exact (HP _ _ _ _ (Ha _ _ Hn) Hs).
Qed.

Lemma ranked_tstep (lt : lock -> lock -> bool) busy t i t' :
  ranked lt (held t) (rest t) = true -> tstep busy t = Some (i, t') ->
  ranked lt (held t') (rest t') = true.
Proof.
  intros Hr Hs. apply tstep_rest_held in Hs. destruct Hs as [E ->].
  rewrite E, ranked_cons in Hr. apply andb_true_iff in Hr. apply Hr.
Qed.

Lemma guarded_tstep busy t i t' :
  guarded (held t) (rest t) = true -> tstep busy t = Some (i, t') ->
  guarded (held t') (rest t') = true.
Proof.
  intros Hr Hs. apply tstep_rest_held in Hs. destruct Hs as [E ->].
  rewrite E, guarded_cons in Hr. apply andb_true_iff in Hr. apply Hr.
Qed.

Lemma init_threads (P : thread -> Prop) (ps : list program) :
  (forall p, In p ps -> P (mkT [] p)) -> all_threads P (init ps).
Proof.
  intros H m t Hm. apply nth_error_In in Hm. unfold init in Hm. apply in_map_iff in Hm.
  destruct Hm as [p [<- Hp]]. apply H. exact Hp.
Qed.

Lemma owned_init ps : owned (init ps) = [].
Proof. induction ps as [|p ps IH]; [reflexivity | exact IH]. Qed.

Lemma init_excl (ps : list program) : excl (init ps).
Proof.
  intros m1 m2 t1 t2 l H1 _ L1 _. exfalso.
  assert (I : In l (owned (init ps))) by (apply In_owned; eauto).
  rewrite owned_init in I. exact I.
Qed.

Lemma steps_invariant (P : thread -> Prop) (c : config) (tr : list event) (c' : config) :
  (forall busy t i t', P t -> tstep busy t = Some (i, t') -> P t') ->
  steps c tr c' -> excl c -> all_threads P c -> excl c' /\ all_threads P c'.
Proof.
  intros HP Hs. induction Hs as [c|c e c1 tr c2 H1 Hs IH]; intros Hx Ha.
  - split; assumption.
  - apply IH.
    + eapply excl_step; eassumption.
    + eapply all_threads_step; eassumption.
Qed.

Lemma some_or_none {A B} (f : A -> option B) (l : list A) :
  (exists x y, In x l /\ f x = Some y) \/ (forall x, In x l -> f x = None).
Proof.
  induction l as [|a l [[x [y [Hx E]]]|IH]].
  - right. intros x [].
  - left. exists x, y. split; [right; exact Hx | exact E].
  - destruct (f a) as [y|] eqn:E.
    + left. exists a, y. split; [left; reflexivity | exact E].
    + right. intros x [<-|Hx]; [exact E | exact (IH x Hx)].
Qed.

(** an instance of [some_or_none]; nothing in the development uses it *)
Corollary classify (c : config) :
  (exists m t i r, nth_error c m = Some t /\ rest t = i :: r /\ forall l, i <> Acq l) \/
  (forall m t, nth_error c m = Some t -> rest t = [] \/ exists l r, rest t = Acq l :: r).
Proof.
  destruct (some_or_none
              (fun t => match rest t with [] | Acq _ :: _ => None | i :: r => Some (i, r) end) c)
    as [(t & [i r] & Ht & E)|H].
  - left. apply In_nth_error in Ht. destruct Ht as [m Hm]. exists m, t, i, r.
    destruct (rest t) as [|[l|l|l] r']; try discriminate E; injection E as <- <-;
      repeat split; try exact Hm; discriminate.
  - right. intros m t Hm. specialize (H t (nth_error_In _ _ Hm)).
    destruct (rest t) as [|[l|l|l] r]; try discriminate H; eauto.
Qed.

Lemma total_upd (c : config) (n : nat) (t t' : thread) :
  nth_error c n = Some t ->
  (total c + length (rest t') = total (upd c n t') + length (rest t))%nat.
Proof.
  revert n. induction c as [|x c IH]; intros [|n] H; cbn in *; try discriminate.
  - inversion H. subst. lia.
  - specialize (IH _ H). unfold total in IH. lia.
Qed.

Lemma step_total (c : config) (e : event) (c' : config) : step c e c' -> total c = S (total c').
Proof.
  intros [t [t' [Hn [Hs Hc]]]]. subst c'. pose proof (total_upd _ _ _ t' Hn) as H.
  apply tstep_rest in Hs. rewrite Hs in H. cbn [length] in H. lia.
Qed.

Lemma steps_total (c : config) (tr : list event) (c' : config) :
  steps c tr c' -> total c = (length tr + total c')%nat.
Proof.
  induction 1 as [c|c e c1 tr c2 H1 _ IH]; [reflexivity|].
  apply step_total in H1. cbn [length]. lia.
Qed.

Lemma total_init (ps : list program) : total (init ps) = length (concat ps).
Proof.
  induction ps as [|p ps IH]; [reflexivity|]. cbn [init map total fold_right rest concat].
  rewrite app_length. unfold init, total in IH. rewrite IH. reflexivity.
Qed.

Lemma finished_total c : finished c -> total c = O.
Proof.
  induction c as [|t c IH]; intros Hf; [reflexivity|]. cbn [total fold_right].
  rewrite (Hf t (or_introl eq_refl)). apply IH. intros u Hu. apply Hf. right. exact Hu.
Qed.

Lemma ranked_run lt ps tr c :
  Forall (fun p => ranked lt [] p = true) ps -> steps (init ps) tr c ->
  all_threads (fun t => ranked lt (held t) (rest t) = true) c.
Proof.
  intros Hps Hs. apply (steps_invariant _ _ _ _ (ranked_tstep lt) Hs (init_excl ps)).
  apply init_threads. exact (proj1 (Forall_forall _ _) Hps).
Qed.

Lemma finished_free lt (c : config) :
  all_threads (fun t => ranked lt (held t) (rest t) = true) c -> finished c -> owned c = [].
Proof.
  intros Hr Hf. destruct (owned c) as [|l o] eqn:E; [reflexivity|]. exfalso.
  assert (In l (owned c)) as I by (rewrite E; left; reflexivity).
  apply In_owned in I. destruct I as [m [t [Hm Hl]]].
  pose proof (Hr _ _ Hm) as R. cbn beta in R. rewrite (Hf t (nth_error_In _ _ Hm)) in R.
  cbn [ranked] in R. destruct (held t); [contradiction|discriminate].
Qed.

Lemma ranked_app lt (h : list lock) (p q : program) :
  ranked lt h p = true -> ranked lt [] q = true -> ranked lt h (p ++ q) = true.
Proof.
  revert h. induction p as [|i p IH]; intros h Hp Hq; cbn [app].
  - cbn [ranked] in Hp. destruct h; [exact Hq|discriminate].
  - rewrite ranked_cons, andb_true_iff in *. split; [apply Hp | apply IH; [apply Hp | exact Hq]].
Qed.

Lemma ranked_concat lt (rs : list program) :
  Forall (fun p => ranked lt [] p = true) rs -> ranked lt [] (concat rs) = true.
Proof.
  induction 1 as [|p rs Hp _ IH]; [reflexivity|]. cbn [concat]. apply ranked_app; assumption.
Qed.

(** [ranked] is used only for: a ranked program ends holding nothing, so [q] starts from []. *)
Lemma guarded_app lt (h : list lock) (p q : program) :
  ranked lt h p = true -> guarded h p = true -> guarded [] q = true ->
  guarded h (p ++ q) = true.
Proof.
  revert h. induction p as [|i p IH]; intros h Hr Hp Hq; cbn [app].
  - cbn [ranked] in Hr. destruct h; [exact Hq|discriminate].
  - rewrite ranked_cons, andb_true_iff in Hr. rewrite guarded_cons, andb_true_iff in *.
    split; [apply Hp | apply IH; [apply Hr | apply Hp | exact Hq]].
Qed.

Lemma guarded_concat lt (rs : list program) :
  Forall (fun p => ranked lt [] p = true) rs -> Forall (fun p => guarded [] p = true) rs ->
  guarded [] (concat rs) = true.
Proof.
  induction 1 as [|p rs Hp _ IH]; intros Hg; [reflexivity|]. inversion Hg; subst.
  cbn [concat]. apply (guarded_app lt); [assumption|assumption|apply IH; assumption].
Qed.

Section DeadlockFree.
  Variable lt : lock -> lock -> bool.
  Hypothesis lt_irrefl : forall a, lt a a = false.
  Hypothesis lt_trans : forall a b c, lt a b = true -> lt b c = true -> lt a c = true.

  Lemma exists_maximal (ls : list lock) :
    ls <> [] -> exists x, In x ls /\ forall y, In y ls -> lt x y = false.
  Proof.
    induction ls as [|a ls IH]; [congruence|]. intros _.
    destruct ls as [|b ls'].
    - exists a. split; [left; reflexivity|]. intros y [<-|[]]. apply lt_irrefl.
    - destruct IH as [m [Hm Hmax]]; [discriminate|].
      destruct (lt m a) eqn:E.
      + exists a. split; [left; reflexivity|]. intros y [<-|Hy]; [apply lt_irrefl|].
        destruct (lt a y) eqn:E2; [|reflexivity].
        pose proof (lt_trans _ _ _ E E2) as T. rewrite (Hmax y Hy) in T. discriminate.
      + exists m. split; [right; exact Hm|]. intros y [<-|Hy]; [exact E|apply Hmax; exact Hy].
  Qed.

  Lemma blocked_waits busy t :
    ranked lt (held t) (rest t) = true -> tstep busy t = None ->
    rest t = [] \/ exists l r, rest t = Acq l :: r /\ In l busy.
  Proof.
    unfold tstep. intros R B.
    destruct (rest t) as [|[l|l|l] r]; [left; reflexivity | right | | discriminate B].
    - exists l, r. split; [reflexivity|]. apply mem_In. destruct (mem l busy); [reflexivity | discriminate B].
    - cbn [ranked] in R. apply andb_true_iff in R. destruct R as [M _]. rewrite M in B. discriminate B.
  Qed.

  (** If somebody has not finished he waits for a lock, so some lock is held; take a maximal
      one: its holder has not finished (it would hold nothing) and so waits for a lock above
      it, which is held as well. *)
  Lemma stuck_finished c :
    all_threads (fun t => ranked lt (held t) (rest t) = true) c ->
    (forall t, In t c -> tstep (owned c) t = None) -> finished c.
  Proof.
    intros Hr Hstuck.
    assert (Hall : forall m t, nth_error c m = Some t ->
                     rest t = [] \/ exists l r, rest t = Acq l :: r /\ In l (owned c)).
    { intros m t Hm. exact (blocked_waits _ _ (Hr _ _ Hm) (Hstuck t (nth_error_In _ _ Hm))). }
    intros t Ht. apply In_nth_error in Ht. destruct Ht as [m Hm].
    destruct (Hall _ _ Hm) as [E|[l [r [_ Hbusy]]]]; [exact E|exfalso].
    destruct (exists_maximal (owned c)) as [x [Hin Hmax]]; [intros W; rewrite W in Hbusy; exact Hbusy|].
    apply In_owned in Hin. destruct Hin as [m2 [t2 [Hm2 Hl2]]].
    pose proof (Hr _ _ Hm2) as R. cbn beta in R.
    destruct (Hall _ _ Hm2) as [E2|[l2 [r2 [E2 Hb2]]]]; rewrite E2 in R; cbn [ranked] in R.
    - destruct (held t2); [contradiction|discriminate].
    - apply andb_true_iff in R. destruct R as [R _]. rewrite forallb_forall in R.
      specialize (R x Hl2). rewrite (Hmax l2 Hb2) in R. discriminate R.
  Qed.

  Lemma progress_ranked (c : config) :
    all_threads (fun t => ranked lt (held t) (rest t) = true) c ->
    finished c \/ exists e c', step c e c'.
  Proof.
    intros Hr. destruct (some_or_none (tstep (owned c)) c) as [[t [[i t'] [Ht E]]]|Hstuck].
    - right. apply In_nth_error in Ht. destruct Ht as [m Hm].
      exists (m, i), (upd c m t'). exact (step_intro _ _ _ _ _ Hm E).
    - left. exact (stuck_finished c Hr Hstuck).
  Qed.

  (** [progress_ranked] under a premise it does not need; nothing in the development uses it *)
  Corollary progress (c : config) :
    excl c -> all_threads (fun t => ranked lt (held t) (rest t) = true) c ->
    finished c \/ exists e c', step c e c'.
  Proof. intros _. apply progress_ranked. Qed.

  Theorem deadlock_free_lt (ps : list program) :
    Forall (fun p => ranked lt [] p = true) ps ->
    forall tr c, steps (init ps) tr c -> finished c \/ exists e c', step c e c'.
  Proof. intros Hps tr c Hs. exact (progress_ranked c (ranked_run lt ps tr c Hps Hs)). Qed.

  Lemma runs_out c :
    all_threads (fun t => ranked lt (held t) (rest t) = true) c ->
    exists tr c', steps c tr c' /\ finished c'.
  Proof.
    induction c as [c IH] using (induction_ltof1 _ total). intros Hr.
    destruct (progress_ranked c Hr) as [Hf|[e [c1 H1]]].
    - exists [], c. split; [constructor | exact Hf].
    - destruct (IH c1) as [tr [c' [Hs Hf]]].
      + unfold ltof. rewrite (step_total _ _ _ H1). apply Nat.lt_succ_diag_r.
      + exact (all_threads_step _ _ _ _ (ranked_tstep lt) Hr H1).
      + exists (e :: tr), c'. split; [econstructor; eassumption | exact Hf].
  Qed.
End DeadlockFree.

Lemma lock_lt_irrefl (rank : N -> N) (a : lock) : lock_lt rank a a = false.
Proof.
  unfold lock_lt. rewrite !N.ltb_irrefl, andb_false_r. reflexivity.
Qed.

Lemma lock_lt_trans (rank : N -> N) (a b c : lock) :
  lock_lt rank a b = true -> lock_lt rank b c = true -> lock_lt rank a c = true.
Proof.
  unfold lock_lt. rewrite !orb_true_iff, !andb_true_iff, !N.ltb_lt, !N.eqb_eq.
  intros [H1|[E1 H1]] [H2|[E2 H2]].
  - left. lia.
  - left. rewrite <- E2. exact H1.
  - left. rewrite E1. exact H2.
  - right. split; [congruence|lia].
Qed.

Lemma ren_lock_inj (f : N -> N -> N) : monotone f -> forall a b, ren_lock f a = ren_lock f b -> a = b.
Proof.
  intros Hm [c1 i1] [c2 i2]. unfold ren_lock. cbn [fst snd]. intros H. injection H as <- H.
  f_equal. destruct (N.eq_dec i1 i2) as [E|E]; [exact E|]. exfalso.
  apply N.lt_gt_cases in E. destruct E as [L|L]; apply (Hm c1) in L; lia.
Qed.

Lemma ren_lock_eqb (f : N -> N -> N) : monotone f ->
  forall a b, lock_eqb (ren_lock f a) (ren_lock f b) = lock_eqb a b.
Proof.
  intros Hm a b. destruct (lock_eqb a b) eqn:E.
  - apply lock_eqb_eq in E. subst. apply lock_eqb_refl.
  - apply lock_eqb_neq. apply lock_eqb_neq in E. intros H. apply E. eapply ren_lock_inj; eassumption.
Qed.

Lemma ren_lock_lt (rank : N -> N) (f : N -> N -> N) : monotone f ->
  forall a b, lock_lt rank a b = true -> lock_lt rank (ren_lock f a) (ren_lock f b) = true.
Proof.
  intros Hm [c1 i1] [c2 i2]. unfold lock_lt, ren_lock. cbn [fst snd].
  rewrite !orb_true_iff, !andb_true_iff, !N.ltb_lt, !N.eqb_eq.
  intros [H|[E H]]; [left; exact H|right]. subst c2. split; [reflexivity|apply Hm; exact H].
Qed.

Lemma mem_ren (f : N -> N -> N) : monotone f ->
  forall l h, mem (ren_lock f l) (map (ren_lock f) h) = mem l h.
Proof.
  intros Hm l h. induction h as [|x h IH]; [reflexivity|].
  cbn [map mem existsb]. unfold mem in IH. rewrite IH, ren_lock_eqb by exact Hm. reflexivity.
Qed.

Lemma drop_ren (f : N -> N -> N) : monotone f ->
  forall l h, drop (ren_lock f l) (map (ren_lock f) h) = map (ren_lock f) (drop l h).
Proof.
  intros Hm l h. induction h as [|x h IH]; [reflexivity|].
  cbn [map drop filter]. unfold drop in IH. rewrite IH, ren_lock_eqb by exact Hm.
  destruct (lock_eqb x l); reflexivity.
Qed.

Lemma hstep_ren f : monotone f ->
  forall h i, hstep (map (ren_lock f) h) (ren_instr f i) = map (ren_lock f) (hstep h i).
Proof.
  intros Hm h [l|l|l]; cbn [hstep ren_instr map]; [reflexivity | apply drop_ren, Hm | reflexivity].
Qed.

Lemma ranked_rename (rank : N -> N) (f : N -> N -> N) : monotone f ->
  forall p h, ranked (lock_lt rank) h p = true ->
              ranked (lock_lt rank) (map (ren_lock f) h) (rename f p) = true.
Proof.
  intros Hm. induction p as [|i p IH]; intros h H; cbn [rename map].
  - cbn [ranked] in *. destruct h; [reflexivity|discriminate].
  - rewrite ranked_cons, andb_true_iff in *. rewrite (hstep_ren f Hm).
    destruct H as [H1 H2]. split; [|apply IH; exact H2].
    destruct i as [l|l|l]; cbn [ranked_ok ren_instr] in *.
    + rewrite forallb_forall in *. intros x Hx. apply in_map_iff in Hx.
      destruct Hx as [y [<- Hy]]. apply ren_lock_lt; [exact Hm|apply H1; exact Hy].
    + rewrite mem_ren by exact Hm. exact H1.
    + reflexivity.
Qed.

Lemma guarded_rename (f : N -> N -> N) : monotone f ->
  forall p h, guarded h p = true -> guarded (map (ren_lock f) h) (rename f p) = true.
Proof.
  intros Hm. induction p as [|i p IH]; intros h H; [reflexivity|]. cbn [rename map].
  rewrite guarded_cons, andb_true_iff in *. rewrite (hstep_ren f Hm).
  destruct H as [H1 H2]. split; [|apply IH; exact H2].
  destruct i as [l|l|l]; cbn [guarded_ok ren_instr] in *; [reflexivity | reflexivity |].
  rewrite mem_ren by exact Hm. exact H1.
Qed.

Lemma of_thread_app n a b :
  of_thread n (a ++ b) = of_thread n a ++ of_thread n b.
Proof. unfold of_thread. rewrite filter_app. apply map_app. Qed.

Lemma of_thread_cons n m i tr :
  of_thread n ((m, i) :: tr) = (if Nat.eqb m n then [i] else []) ++ of_thread n tr.
Proof. unfold of_thread. cbn [filter fst]. destruct (Nat.eqb m n); reflexivity. Qed.

(** [of_thread_cons] at [m = n]; nothing in the development uses it *)
Corollary of_thread_cons_same (n : nat) (i : instr) (tr : list event) :
  of_thread n ((n, i) :: tr) = i :: of_thread n tr.
Proof. rewrite of_thread_cons, Nat.eqb_refl. reflexivity. Qed.

(** [of_thread_cons] at [m <> n]; nothing in the development uses it *)
Corollary of_thread_cons_other (n m : nat) (i : instr) (tr : list event) :
  m <> n -> of_thread n ((m, i) :: tr) = of_thread n tr.
Proof. intros H. rewrite of_thread_cons. destruct (Nat.eqb_spec m n); [contradiction|reflexivity]. Qed.

Lemma of_thread_block n m (s : list instr) :
  of_thread n (map (pair m) s) = if Nat.eqb m n then s else [].
Proof.
  induction s as [|i s IH]; [destruct (Nat.eqb m n); reflexivity|].
  cbn [map]. rewrite of_thread_cons, IH. destruct (Nat.eqb m n); reflexivity.
Qed.

Lemma of_thread_flatten (n : nat) (bs : list block) :
  of_thread n (flatten bs) = concat (map snd (filter (fun b => Nat.eqb (fst b) n) bs)).
Proof.
  induction bs as [|[m s] bs IH]; [reflexivity|].
  change (flatten ((m, s) :: bs)) with (map (pair m) s ++ flatten bs).
  rewrite of_thread_app, of_thread_block, IH. cbn [filter fst].
  destruct (Nat.eqb m n); reflexivity.
Qed.

Lemma step_rest c m i c1 n t :
  step c (m, i) c1 -> nth_error c n = Some t ->
  exists t1, nth_error c1 n = Some t1 /\ rest t = (if Nat.eqb m n then [i] else []) ++ rest t1.
Proof.
  intros [u [u' [Hu [Hs ->]]]] Hn. cbn [fst snd] in *. rewrite (nth_upd _ _ _ _ _ Hu).
  destruct (Nat.eqb_spec m n) as [<-|E]; [|exists t; auto].
  exists u'. split; [reflexivity|]. rewrite Hn in Hu. injection Hu as <-. apply (tstep_rest _ _ _ _ Hs).
Qed.

Lemma thread_order (c : config) (tr : list event) (c' : config) :
  steps c tr c' ->
  forall n t, nth_error c n = Some t ->
              exists t', nth_error c' n = Some t' /\ rest t = of_thread n tr ++ rest t'.
Proof.
  induction 1 as [c|c [m i] c1 tr c2 H1 _ IH]; intros n t Hn.
  - exists t. split; [exact Hn|reflexivity].
  - destruct (step_rest _ _ _ _ _ _ H1 Hn) as [t1 [Hn1 E1]]. destruct (IH n t1 Hn1) as [t' [Hn' E']].
    exists t'. split; [exact Hn'|]. rewrite of_thread_cons, E1, E', app_assoc. reflexivity.
Qed.

Section Sections.
  Variable g : lock.

  Definition owner_ok (o : option nat) (c : config) : Prop :=
    match o with
    | None => ~ In g (owned c)
    | Some n => exists t, nth_error c n = Some t /\ In g (held t)
    end.

  Lemma owner_ok_upd (o : option nat) (c : config) (n : nat) (t t' : thread) :
    nth_error c n = Some t -> (In g (held t) <-> In g (held t')) ->
    owner_ok o c -> owner_ok o (upd c n t').
  Proof.
    intros Hn Hiff. destruct o as [k|]; cbn [owner_ok].
    - intros [u [Hu Hl]]. rewrite (nth_upd _ _ _ _ _ Hn). destruct (Nat.eqb_spec n k) as [<-|E].
      + exists t'. split; [reflexivity|]. rewrite Hn in Hu. injection Hu as <-. apply Hiff, Hl.
      + exists u. auto.
    - rewrite !In_owned. intros Hfree [m [u [Hm Hl]]]. apply Hfree.
      rewrite (nth_upd _ _ _ _ _ Hn) in Hm. destruct (Nat.eqb_spec n m) as [<-|E].
      + injection Hm as <-. exists n, t. tauto.
      + exists m, u. auto.
  Qed.

  Lemma owner_free o c : owner_ok o c -> ~ In g (owned c) -> o = None.
  Proof.
    destruct o as [k|]; [|reflexivity]. intros [u [Hu Hl]] Hfree. exfalso.
    apply Hfree. apply In_owned. exists k, u. auto.
  Qed.

  Lemma owner_holder o c n t :
    excl c -> owner_ok o c -> nth_error c n = Some t -> In g (held t) -> o = Some n.
  Proof.
    intros Hx Ho Hn Hl. destruct o as [k|].
    - destruct Ho as [u [Hu Hlu]]. f_equal. exact (Hx _ _ _ _ _ Hu Hn Hlu Hl).
    - exfalso. apply Ho. apply In_owned. exists n, t. auto.
  Qed.

  Lemma held_unconcerned busy t i t' :
    tstep busy t = Some (i, t') -> concerns g i = false -> (In g (held t) <-> In g (held t')).
  Proof.
    intros Hs C. apply tstep_rest_held in Hs. destruct Hs as [_ ->].
    destruct i as [l|l|l]; cbn [concerns hstep In] in *; [apply lock_eqb_neq in C; tauto | | tauto].
    rewrite In_drop. apply lock_eqb_neq in C. split; [intros H; split; [exact H | congruence] | tauto].
  Qed.

  Lemma sec_step (o : option nat) (c : config) (e : event) (c' : config) :
    excl c -> all_threads (fun t => guarded (held t) (rest t) = true) c ->
    owner_ok o c -> step c e c' ->
    exists o', sec_trans g o e = Some o' /\ owner_ok o' c'.
  Proof.
    intros Hx Hg Ho [t [t' [Hn [Hs ->]]]]. destruct e as [n i]. cbn [fst snd] in *.
    unfold sec_trans. cbn [fst snd]. destruct (concerns g i) eqn:C.
    2: { exists o. split; [reflexivity|].
         exact (owner_ok_upd _ _ _ _ _ Hn (held_unconcerned _ _ _ _ Hs C) Ho). }
    pose proof (Hg _ _ Hn) as G. cbn beta in G.
    apply tstep_cases in Hs. destruct Hs as [l r E Hfree|l r E Hheld|l r E];
      cbn [concerns] in C; apply lock_eqb_eq in C; subst l.
    - (* Acq: [g] was free, now [n] is inside *)
      apply mem_false in Hfree. rewrite (owner_free _ _ Ho Hfree).
      exists (Some n). split; [reflexivity|]. exists (mkT (g :: held t) r).
      split; [exact (nth_upd_eq _ _ _ _ Hn) | left; reflexivity].
    - (* Rel: [n] was inside, now nobody holds [g] *)
      apply mem_In in Hheld. rewrite (owner_holder _ _ _ _ Hx Ho Hn Hheld), Nat.eqb_refl.
      exists None. split; [reflexivity|]. cbn [owner_ok]. rewrite In_owned. intros [m [u [Hm Hu]]].
      rewrite (nth_upd _ _ _ _ _ Hn) in Hm. destruct (Nat.eqb_spec n m) as [<-|Ne].
      + injection Hm as <-. cbn [held] in Hu. apply In_drop in Hu. tauto.
      + exact (Ne (Hx _ _ _ _ _ Hn Hm Hheld Hu)).
    - (* Touch: by [guarded], [n] holds [g] and stays inside *)
      rewrite E, guarded_cons in G. apply andb_true_iff in G. destruct G as [G _]. apply mem_In in G.
      rewrite (owner_holder _ _ _ _ Hx Ho Hn G), Nat.eqb_refl.
      exists (Some n). split; [reflexivity|]. exists (mkT (held t) r).
      split; [exact (nth_upd_eq _ _ _ _ Hn) | exact G].
  Qed.

  Lemma sec_steps (c : config) (tr : list event) (c' : config) :
    steps c tr c' ->
    forall o, excl c -> all_threads (fun t => guarded (held t) (rest t) = true) c ->
              owner_ok o c -> exists o', sec_run g o tr = Some o' /\ owner_ok o' c'.
  Proof.
    induction 1 as [c|c e c1 tr c2 H1 _ IH]; intros o Hx Hg Ho.
    - exists o. split; [reflexivity|exact Ho].
    - destruct (sec_step o c e c1 Hx Hg Ho H1) as [o1 [T1 Ho1]].
      destruct (IH o1) as [o2 [T2 Ho2]].
      + eapply excl_step; eassumption.
      + eapply all_threads_step; [exact guarded_tstep|exact Hg|exact H1].
      + exact Ho1.
      + exists o2. split; [|exact Ho2]. cbn [sec_run]. rewrite T1. exact T2.
  Qed.

  Lemma concerns_shape (i : instr) :
    concerns g i = true -> i = Acq g \/ i = Rel g \/ i = Touch g.
  Proof.
    destruct i as [l|l|l]; cbn [concerns]; intros H; apply lock_eqb_eq in H; subst; tauto.
  Qed.

  Inductive sec_move (m : nat) : option nat -> instr -> option nat -> Prop :=
  | sm_acq : sec_move m None (Acq g) (Some m)
  | sm_touch : sec_move m (Some m) (Touch g) (Some m)
  | sm_rel : sec_move m (Some m) (Rel g) None.

  Lemma sec_trans_inv o m i o' :
    sec_trans g o (m, i) = Some o' -> if concerns g i then sec_move m o i o' else o' = o.
  Proof.
    unfold sec_trans. cbn [fst snd]. destruct (concerns g i) eqn:C; [|intros [= <-]; reflexivity].
    destruct (concerns_shape i C) as [-> | [-> | ->]], o as [n|]; try discriminate.
    - intros [= <-]. constructor.
    - destruct (Nat.eqb_spec m n) as [->|_]; [|discriminate]. intros [= <-]. constructor.
    - destruct (Nat.eqb_spec m n) as [->|_]; [|discriminate]. intros [= <-]. constructor.
  Qed.

  Definition closing (o : option nat) (k : nat) : list event :=
    match o with None => [] | Some n => map (pair n) (repeat (Touch g) k ++ [Rel g]) end.

  (** acceptance by the automaton = the projection is the end of the open section, then a
      sequence of whole sections *)
  Lemma sec_run_closing (tr : list event) : forall o,
    sec_run g o tr = Some None ->
    exists k bs, proj g tr = closing o k ++ flatten bs /\ Forall (fun b => is_section g (snd b)) bs.
  Proof.
    induction tr as [|[m i] tr IH]; intros o; cbn [sec_run proj filter snd].
    - intros [= ->]. exists O, []. split; [reflexivity | constructor].
    - destruct (sec_trans g o (m, i)) as [o'|] eqn:T; [|discriminate]. intros R.
      destruct (IH o' R) as (k & bs & P & F). fold (proj g tr). rewrite P. clear IH R P.
      apply sec_trans_inv in T. destruct (concerns g i); [|subst o'; exists k, bs; auto].
      destruct T; cbn [closing app].
      + exists O, ((m, Acq g :: repeat (Touch g) k ++ [Rel g]) :: bs).
        split; [reflexivity | constructor; [exists k; reflexivity | exact F]].
      + exists (S k), bs. auto.
      + exists O, bs. auto.
  Qed.

  Corollary sec_run_blocks (tr : list event) :
    (sec_run g None tr = Some None ->
     exists bs, proj g tr = flatten bs /\ Forall (fun b => is_section g (snd b)) bs) /\
    (forall n, sec_run g (Some n) tr = Some None ->
     exists k bs, proj g tr = map (pair n) (repeat (Touch g) k ++ [Rel g]) ++ flatten bs /\
                  Forall (fun b => is_section g (snd b)) bs).
  Proof.
    split; [|intros n; exact (sec_run_closing tr (Some n))].
    intros R. destruct (sec_run_closing tr None R) as (k & bs & H). exists bs. exact H.
  Qed.

  Theorem slot_atomic (ps : list program) :
    Forall (fun p => guarded [] p = true) ps ->
    forall tr c, steps (init ps) tr c -> ~ In g (owned c) ->
      exists bs, proj g tr = flatten bs /\ Forall (fun b => is_section g (snd b)) bs.
  Proof.
    intros Hps tr c Hs Hfree.
    destruct (sec_steps _ _ _ Hs None (init_excl ps)) as [o [R Ho]].
    - apply init_threads. exact (proj1 (Forall_forall _ _) Hps).
    - cbn [owner_ok]. rewrite owned_init. intros [].
    - rewrite (owner_free _ _ Ho Hfree) in R. exact (proj1 (sec_run_blocks tr) R).
  Qed.

  Lemma of_thread_proj (n : nat) (tr : list event) :
    of_thread n (proj g tr) = filter (concerns g) (of_thread n tr).
  Proof.
    induction tr as [|[m i] tr IH]; [reflexivity|].
    rewrite of_thread_cons, filter_app, <- IH. cbn [proj filter snd]. fold (proj g tr).
    destruct (concerns g i) eqn:C; [rewrite of_thread_cons|];
      destruct (Nat.eqb m n); cbn [filter app]; rewrite ?C; reflexivity.
  Qed.
End Sections.

(** The blocks [bs] of thread [n] are, in order, the critical sections of its program.  When a request takes [g]
    once ([single_section]) its block is therefore the whole of what the request does to the protected value: the
    concurrent history of that value is a sequential history of whole requests. *)
Theorem slot_atomic_requests (lt : lock -> lock -> bool) (g : lock) (ps : list program) :
  Forall (fun p => ranked lt [] p = true) ps ->
  Forall (fun p => guarded [] p = true) ps ->
  forall tr c, steps (init ps) tr c -> finished c ->
    exists bs, proj g tr = flatten bs /\
               Forall (fun b => is_section g (snd b)) bs /\
               forall n p, nth_error ps n = Some p ->
                 filter (concerns g) p = concat (map snd (filter (fun b => Nat.eqb (fst b) n) bs)).
Proof.
  intros Hr Hg tr c Hs Hf.
  pose proof (finished_free lt c (ranked_run lt ps tr c Hr Hs) Hf) as Hfree.
  destruct (slot_atomic g ps Hg tr c Hs) as [bs [P F]].
  { rewrite Hfree. intros []. }
  exists bs. split; [exact P|]. split; [exact F|].
  intros n p Hn.
  assert (nth_error (init ps) n = Some (mkT [] p)) as Hn'.
  { unfold init. apply map_nth_error. exact Hn. }
  destruct (thread_order _ _ _ Hs n _ Hn') as [t' [H1 H2]]. cbn [rest] in H2.
  rewrite (Hf t' (nth_error_In _ _ H1)), app_nil_r in H2.
  rewrite H2, <- of_thread_proj, P. apply of_thread_flatten.
Qed.

(** Any number of threads, each running any sequence of requests taken from a list of
    checked programs, each request possibly on other instances (monotone renaming). *)
Definition instance_of (progs : list program) (p : program) : Prop :=
  exists q f, In q progs /\ monotone f /\ p = rename f q.

Lemma instances_ranked (rank : N -> N) (progs : list program) :
  all_ranked rank progs = true ->
  forall rs, Forall (instance_of progs) rs ->
             Forall (fun p => ranked (lock_lt rank) [] p = true) rs.
Proof.
  intros H rs. unfold all_ranked in H. rewrite forallb_forall in H.
  apply Forall_impl. intros p [q [f [Hq [Hm ->]]]]. exact (ranked_rename rank f Hm q [] (H q Hq)).
Qed.

Lemma instances_guarded (progs : list program) :
  all_guarded progs = true ->
  forall rs, Forall (instance_of progs) rs -> Forall (fun p => guarded [] p = true) rs.
Proof.
  intros H rs. unfold all_guarded in H. rewrite forallb_forall in H.
  apply Forall_impl. intros p [q [f [Hq [Hm ->]]]]. exact (guarded_rename f Hm q [] (H q Hq)).
Qed.

Lemma reqs_ranked rank progs reqs :
  all_ranked rank progs = true -> Forall (Forall (instance_of progs)) reqs ->
  Forall (fun p => ranked (lock_lt rank) [] p = true) (map (@concat instr) reqs).
Proof.
  intros H Hreqs. apply Forall_map. revert Hreqs. apply Forall_impl. intros rs Hrs.
  apply ranked_concat. exact (instances_ranked rank progs H rs Hrs).
Qed.

Lemma reqs_guarded rank progs reqs :
  all_ranked rank progs = true -> all_guarded progs = true ->
  Forall (Forall (instance_of progs)) reqs ->
  Forall (fun p => guarded [] p = true) (map (@concat instr) reqs).
Proof.
  intros H G Hreqs. apply Forall_map. revert Hreqs. apply Forall_impl. intros rs Hrs.
  apply (guarded_concat (lock_lt rank)).
  - exact (instances_ranked rank progs H rs Hrs).
  - exact (instances_guarded progs G rs Hrs).
Qed.

Theorem deadlock_free (rank : N -> N) (progs : list program) :
  all_ranked rank progs = true ->
  forall reqs : list (list program),
    Forall (Forall (instance_of progs)) reqs ->
    forall tr c, steps (init (map (@concat instr) reqs)) tr c ->
      (finished c \/ exists e c', step c e c') /\
      (length tr <= length (concat (map (@concat instr) reqs)))%nat.
Proof.
  intros H reqs Hreqs tr c Hs. split.
  - exact (deadlock_free_lt (lock_lt rank) (lock_lt_irrefl rank) (lock_lt_trans rank) _
             (reqs_ranked rank progs reqs H Hreqs) tr c Hs).
  - pose proof (steps_total _ _ _ Hs) as T. rewrite total_init in T. lia.
Qed.

Theorem completes (rank : N -> N) (progs : list program) :
  all_ranked rank progs = true ->
  forall reqs : list (list program),
    Forall (Forall (instance_of progs)) reqs ->
    forall tr c, steps (init (map (@concat instr) reqs)) tr c ->
      exists tr' c', steps c tr' c' /\ finished c'.
Proof.
  intros H reqs Hreqs tr c Hs.
  exact (runs_out (lock_lt rank) (lock_lt_irrefl rank) (lock_lt_trans rank) c
           (ranked_run _ _ tr c (reqs_ranked rank progs reqs H Hreqs) Hs)).
Qed.

Theorem slot_atomic_threads (rank : N -> N) (progs : list program) (g : lock) :
  all_ranked rank progs = true -> all_guarded progs = true ->
  forall reqs : list (list program),
    Forall (Forall (instance_of progs)) reqs ->
    forall tr c, steps (init (map (@concat instr) reqs)) tr c -> finished c ->
      exists bs, proj g tr = flatten bs /\
                 Forall (fun b => is_section g (snd b)) bs /\
                 forall n rs, nth_error reqs n = Some rs ->
                   filter (concerns g) (concat rs) =
                   concat (map snd (filter (fun b => Nat.eqb (fst b) n) bs)).
Proof.
  intros Hr Hg reqs Hreqs tr c Hs Hf.
  destruct (slot_atomic_requests (lock_lt rank) g _ (reqs_ranked rank progs reqs Hr Hreqs)
              (reqs_guarded rank progs reqs Hr Hg Hreqs) tr c Hs Hf) as [bs [P [F Q]]].
  exists bs. split; [exact P|]. split; [exact F|].
  intros n rs Hn. apply Q. apply map_nth_error. exact Hn.
Qed.

Lemma rename_id (p : program) : rename (fun _ i => i) p = p.
Proof.
  induction p as [|i p IH]; [reflexivity|]. cbn [rename map]. unfold rename in IH. rewrite IH.
  destruct i as [[c n]|[c n]|[c n]]; reflexivity.
Qed.

Lemma instance_self (progs : list program) (p : program) : In p progs -> instance_of progs p.
Proof.
  intros H. exists p, (fun _ i => i). split; [exact H|]. split.
  - intros c a b L. exact L.
  - symmetry. apply rename_id.
Qed.

(** the same request on other channels *)
Lemma shift_monotone (off : N -> N) : monotone (fun c i => off c + i).
Proof. intros c a b L. lia. Qed.

Definition deadlocked (c : config) : Prop := ~ finished c /\ forall e c', ~ step c e c'.

Lemma exec_steps (sched : list nat) :
  forall c c' tr, exec c sched = Some (c', tr) -> steps c tr c'.
Proof.
  induction sched as [|n r IH]; intros c c' tr H; cbn [exec] in H.
  - inversion H. subst. constructor.
  - destruct (nth_error c n) as [t|] eqn:Hn; [|discriminate].
    destruct (tstep (owned c) t) as [[i t']|] eqn:Hs; [|discriminate].
    destruct (exec (upd c n t') r) as [[c1 tr1]|] eqn:He; [|discriminate].
    inversion H. subst. econstructor; [exact (step_intro _ _ _ _ _ Hn Hs) | apply IH; exact He].
Qed.

Lemma stuckb_sound (c : config) : stuckb c = true -> forall e c', ~ step c e c'.
Proof.
  unfold stuckb. rewrite forallb_forall. intros H e c' [t [t' [Hn [Hs _]]]].
  specialize (H t (nth_error_In _ _ Hn)). rewrite Hs in H. discriminate.
Qed.

Lemma finishedb_false (c : config) : finishedb c = false -> ~ finished c.
Proof.
  intros H F. assert (finishedb c = true) as T; [|congruence].
  unfold finishedb. apply forallb_forall. intros t Ht. rewrite (F t Ht). reflexivity.
Qed.

Lemma deadlocked_by_exec (ps : list program) (sched : list nat) (c : config) (tr : list event) :
  exec (init ps) sched = Some (c, tr) -> finishedb c = false -> stuckb c = true ->
  steps (init ps) tr c /\ deadlocked c.
Proof.
  intros He Hf Hs. split; [apply (exec_steps sched); exact He|].
  split; [apply finishedb_false; exact Hf|apply stuckb_sound; exact Hs].
Qed.

Lemma witness_deadlocks w :
  witness_ok w = true -> exists tr c, steps (init (fst w)) tr c /\ deadlocked c.
Proof.
  unfold witness_ok. destruct (exec (init (fst w)) (snd w)) as [[c tr]|] eqn:E; [|discriminate].
  rewrite andb_true_iff, negb_true_iff. intros [H1 H2].
  exists tr, c. exact (deadlocked_by_exec _ _ _ _ E H1 H2).
Qed.

Lemma witnesses_deadlock ws :
  forallb witness_ok ws = true ->
  forall w, In w ws -> exists tr c, steps (init (fst w)) tr c /\ deadlocked c.
Proof. intros H w Hw. rewrite forallb_forall in H. exact (witness_deadlocks w (H w Hw)). Qed.

Lemma ranked_edges (lt : lock -> lock -> bool) (p : program) :
  forall held, ranked lt held p = true ->
               forall h l, In (h, l) (edges held p) -> lt h l = true.
Proof.
  induction p as [|i p IH]; intros held R h l I; [contradiction|].
  rewrite ranked_cons, andb_true_iff in R. destruct R as [R1 R2]. specialize (IH _ R2 h l).
  destruct i as [a|a|a]; cbn [edges hstep ranked_ok] in *; [|exact (IH I)..].
  apply in_app_or in I. destruct I as [I|I]; [|exact (IH I)].
  apply in_map_iff in I. destruct I as [x [E Hx]]. injection E as <- <-.
  rewrite forallb_forall in R1. apply R1. exact Hx.
Qed.

Lemma has_edge_In (a b : lock) (p : program) : has_edge a b p = true -> In (a, b) (edges [] p).
Proof.
  unfold has_edge. rewrite existsb_exists. intros [[x y] [I E]]. cbn [fst snd] in E.
  apply andb_true_iff in E. destruct E as [E1 E2]. apply lock_eqb_eq in E1, E2. subst. exact I.
Qed.

Theorem inversion_unrankable (a b : lock) (p q : program) (ps : list program) :
  has_edge a b p = true -> has_edge b a q = true -> In p ps -> In q ps ->
  forall rank, all_ranked rank ps = false.
Proof.
  intros Ep Eq Ip Iq rank. destruct (all_ranked rank ps) eqn:A; [|reflexivity]. exfalso.
  unfold all_ranked in A. rewrite forallb_forall in A.
  pose proof (ranked_edges _ _ _ (A p Ip) a b (has_edge_In _ _ _ Ep)) as L1.
  pose proof (ranked_edges _ _ _ (A q Iq) b a (has_edge_In _ _ _ Eq)) as L2.
  pose proof (lock_lt_trans rank _ _ _ L1 L2) as T. rewrite lock_lt_irrefl in T. discriminate.
Qed.
