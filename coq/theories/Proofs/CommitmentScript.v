(** C04, script layer: the lexer inverts the builder, [read_scriptint] inverts [write_scriptint]
    on the 31-bit range, and, once for all templates, a template parses what it built
    ([parse_build]) and rejects what a template that parts from it on an opcode built
    ([parse_diverge]); hence which entry of a first-match cascade takes a built script. *)
From Coq Require Import List NArith ZArith Bool Lia.
From VLS Require Import Base.Codec Model.Commitment.
Import ListNotations.
Open Scope N_scope.

Lemma next_instr_op (op : N) (r : bytes) : 0x4e < op -> next_instr (op :: r) = NIns (IOp op) r.
Proof.
  intros H. unfold next_instr, OP_PUSHDATA1, OP_PUSHDATA2, OP_PUSHDATA4.
  destruct (N.ltb_spec op 0x4c); [lia|].
  destruct (N.eqb_spec op 0x4c); [lia|].
  destruct (N.eqb_spec op 0x4d); [lia|].
  destruct (N.eqb_spec op 0x4e); [lia|]. reflexivity.
Qed.

Lemma push_slice_small (d : bytes) : (length d < 76)%nat -> push_slice d = lenN d :: d.
Proof.
  intros H. unfold push_slice. destruct (N.ltb_spec (lenN d) 0x4c) as [_|C]; [reflexivity|].
  unfold lenN in C. lia.
Qed.

Lemma next_instr_push (d r : bytes) :
  (length d < 76)%nat -> next_instr (push_slice d ++ r) = NIns (IPush d) r.
Proof.
  intros H. rewrite push_slice_small by exact H. cbn [app next_instr].
  unfold OP_PUSHDATA1. destruct (N.ltb_spec (lenN d) 0x4c) as [_|C]; [|unfold lenN in C; lia].
  unfold take_push.
  destruct (N.ltb_spec (lenN (d ++ r)) (lenN d)) as [C|_]; [unfold lenN in C; rewrite app_length in C; lia|].
  unfold lenN. rewrite Nat2N.id, take_app by reflexivity. reflexivity.
Qed.

Lemma expect_op_op (op o : N) (r : bytes) :
  0x4e < o -> expect_op op (o :: r) = if o =? op then Some r else None.
Proof. intros H. unfold expect_op. rewrite next_instr_op by exact H. reflexivity. Qed.

Lemma expect_op_push (op : N) (d r : bytes) :
  (length d < 76)%nat -> expect_op op (push_slice d ++ r) = None.
Proof. intros H. unfold expect_op. rewrite next_instr_push by exact H. reflexivity. Qed.

Lemma expect_data_push (d r : bytes) :
  (length d < 76)%nat -> expect_data (push_slice d ++ r) = Some (d, r).
Proof. intros H. unfold expect_data. rewrite next_instr_push by exact H. reflexivity. Qed.

Lemma expect_data_op (o : N) (r : bytes) : 0x4e < o -> expect_data (o :: r) = None.
Proof. intros H. unfold expect_data. rewrite next_instr_op by exact H. reflexivity. Qed.

(** what [read_scriptint] asks of a positive number's encoding *)
Definition minimal_pos (v : bytes) : Prop :=
  match rev v with
  | [] => False
  | last :: pre =>
      last < 128 /\ (last = 0 -> match pre with [] => False | p :: _ => N.even (p / 128) = false end)
  end.

Lemma minimal_pos_cons b v : minimal_pos v -> minimal_pos (b :: v).
Proof.
  unfold minimal_pos. cbn [rev].
  destruct (rev v) as [|last [|p pre]]; [contradiction| |]; cbn [app]; [|exact (fun H => H)].
  intros [H1 H2]. split; [exact H1|]. intros E. destruct (H2 E).
Qed.

Lemma read_minimal v :
  minimal_pos v -> (length v <= 4)%nat -> read_scriptint v = Some (Z.of_N (le_val v)).
Proof.
  unfold minimal_pos, read_scriptint. intros H Hl.
  destruct (rev v) as [|last pre]; [contradiction|]. destruct H as [Hs Hz].
  destruct (N.ltb_spec 4 (lenN v)) as [C|_]; [unfold lenN in C; lia|].
  rewrite N.mod_small, N.div_small by exact Hs.
  destruct (N.eqb_spec last 0) as [E|_]; [|reflexivity].
  destruct pre as [|p pre]; [destruct (Hz E)|]. rewrite (Hz E). reflexivity.
Qed.

(** [S f] is the fuel (any [f >= k] will do; write_scriptint has 8), [S k] the number of bytes that
    [a < 128 * 256^k] needs at most *)
Lemma scriptint_abs_spec : forall k f a,
  (k <= f)%nat -> 0 < a < 128 * 256 ^ N.of_nat k ->
  le_val (scriptint_abs (S f) a) = a /\ minimal_pos (scriptint_abs (S f) a)
  /\ (length (scriptint_abs (S f) a) <= S k)%nat.
Proof.
  induction k as [|k IH]; intros f a Hf Ha; cbn [scriptint_abs];
    destruct (N.ltb_spec 0xFF a) as [H1|H1].
  - cbn in Ha. lia.
  - destruct (N.leb_spec 0x80 a) as [H2|H2]; [cbn in Ha; lia|].
    cbn [le_val length]. unfold minimal_pos. cbn [rev app]. repeat split; lia.
  - destruct f as [|f]; [lia|]. rewrite Nat2N.inj_succ, N.pow_succ_r' in Ha.
    destruct (IH f (a / 256)) as (V & M & L); [lia| |].
    { split; [apply N.div_str_pos; lia|apply N.div_lt_upper_bound; lia]. }
    cbn [le_val length]. rewrite V. pose proof (N.div_mod' a 256).
    repeat split; [lia|apply minimal_pos_cons; exact M|lia].
  - destruct (N.leb_spec 0x80 a) as [H2|H2]; cbn [le_val length]; unfold minimal_pos; cbn [rev app].
    + repeat split; try lia. intros _. rewrite <- (N.div_unique a 128 1 (a - 128)) by lia. reflexivity.
    + repeat split; lia.
Qed.

Lemma read_write_scriptint (n : N) :
  0 < n -> n < 2 ^ 31 ->
  read_scriptint (write_scriptint n) = Some (Z.of_N n) /\ (length (write_scriptint n) <= 4)%nat.
Proof.
  intros Hp Hn. unfold write_scriptint. destruct (N.eqb_spec n 0); [lia|].
  destruct (scriptint_abs_spec 3 7 n) as (V & M & L); [lia|split; [exact Hp|exact Hn]|].
  split; [|exact L]. rewrite read_minimal, V by assumption. reflexivity.
Qed.

Lemma expect_number_int (n : N) (r : bytes) :
  n < 2 ^ 31 -> expect_number (push_int n ++ r) = Some (Z.of_N n, r).
Proof.
  intros Hn. unfold push_int.
  destruct (N.leb_spec 1 n) as [H1|H1]; destruct (N.leb_spec n 16) as [H16|H16]; cbn [andb].
  - (* OP_1 .. OP_16 *)
    cbn [app]. unfold expect_number. rewrite next_instr_op by lia.
    unfold OP_1NEGATE, OP_1, OP_16.
    destruct (N.eqb_spec (0x50 + n) 0x4f); [lia|].
    destruct (N.leb_spec 0x51 (0x50 + n)); [|lia]. destruct (N.leb_spec (0x50 + n) 0x60); [|lia].
    cbn [andb]. do 2 f_equal. lia.
  - (* a data push *)
    destruct (N.eqb_spec n 0); [lia|].
    destruct (read_write_scriptint n) as [Hr Hl]; [lia|exact Hn|].
    unfold expect_number. rewrite next_instr_push by lia. rewrite Hr. reflexivity.
  - (* zero: OP_0 pushes the empty string *)
    assert (n = 0) by lia. subst n. cbn [N.eqb app].
    unfold expect_number, next_instr, take_push. cbn [N.ltb N.compare OP_PUSHDATA1].
    destruct (N.ltb_spec (lenN r) 0) as [C|_]; [lia|]. reflexivity.
  - lia.
Qed.

Fixpoint build_tmpl (t : list titem) (vs : list tval) : bytes :=
  match t with
  | [] => []
  | TOp op :: t' => op :: build_tmpl t' vs
  | TData :: t' =>
      match vs with VData d :: vs' => push_slice d ++ build_tmpl t' vs' | _ => [] end
  | TNum :: t' =>
      match vs with VNum z :: vs' => push_int (Z.to_N z) ++ build_tmpl t' vs' | _ => [] end
  | TNumIs k :: t' => push_int (Z.to_N k) ++ build_tmpl t' vs
  end.

(** [0x4e < op]: not a push opcode; [length d < 76]: a push whose length is its first byte *)
Fixpoint wf_tv (t : list titem) (vs : list tval) : Prop :=
  match t with
  | [] => vs = []
  | TOp op :: t' => 0x4e < op /\ wf_tv t' vs
  | TData :: t' =>
      match vs with
      | VData d :: vs' => (length d < 76)%nat /\ wf_tv t' vs'
      | _ => False
      end
  | TNum :: t' =>
      match vs with
      | VNum z :: vs' => (0 <= z < 2 ^ 31)%Z /\ wf_tv t' vs'
      | _ => False
      end
  | TNumIs k :: t' => (0 <= k < 2 ^ 31)%Z /\ wf_tv t' vs
  end.

Lemma z31 (z : Z) : (0 <= z < 2 ^ 31)%Z -> Z.to_N z < 2 ^ 31 /\ Z.of_N (Z.to_N z) = z.
Proof. lia. Qed.

Theorem parse_build (t : list titem) : forall vs, wf_tv t vs -> parse_tmpl t (build_tmpl t vs) = Some vs.
Proof.
  induction t as [|it t IH]; intros vs H; cbn [wf_tv] in H.
  - subst vs. reflexivity.
  - destruct it as [op| | |k]; cbn [build_tmpl parse_tmpl].
    + destruct H as [Hop H]. rewrite expect_op_op, N.eqb_refl by exact Hop. apply IH. exact H.
    + destruct vs as [|[d|z] vs']; try contradiction. destruct H as [Hd H].
      rewrite expect_data_push by exact Hd. rewrite (IH vs' H). reflexivity.
    + destruct vs as [|[d|z] vs']; try contradiction. destruct H as [Hz H].
      destruct (z31 z Hz) as [Hn Hr].
      rewrite expect_number_int by exact Hn. rewrite Hr, (IH vs' H). reflexivity.
    + destruct H as [Hk H]. destruct (z31 k Hk) as [Hn Hr].
      rewrite expect_number_int by exact Hn. rewrite Hr, Z.eqb_refl. apply IH. exact H.
Qed.

(** how a parse fails: walking [t1] over a script built from [t2], the first item on which
    the two differ is an opcode of [t1] facing another opcode or a data push *)
Fixpoint diverge (t1 t2 : list titem) : bool :=
  match t1, t2 with
  | TOp a :: r1, TOp b :: r2 => if b =? a then diverge r1 r2 else true
  | TOp _ :: _, TData :: _ => true
  | TData :: r1, TData :: r2 => diverge r1 r2
  | TNumIs a :: r1, TNumIs b :: r2 => if (b =? a)%Z then diverge r1 r2 else false
  | _, _ => false
  end.

Theorem parse_diverge (t1 : list titem) : forall t2 vs,
  wf_tv t2 vs -> diverge t1 t2 = true -> parse_tmpl t1 (build_tmpl t2 vs) = None.
Proof.
  induction t1 as [|[a| | |a] t1 IH]; intros [|[b| | |b] t2] vs W D; cbn [diverge] in D;
    try discriminate; cbn [wf_tv] in W; cbn [build_tmpl parse_tmpl].
  - destruct W as [Hb W]. rewrite expect_op_op by exact Hb.
    destruct (b =? a); [apply IH; assumption|reflexivity].
  - destruct vs as [|[d|z] vs]; try contradiction. destruct W as [Hd W].
    rewrite expect_op_push by exact Hd. reflexivity.
  - destruct vs as [|[d|z] vs]; try contradiction. destruct W as [Hd W].
    rewrite expect_data_push by exact Hd. rewrite IH by assumption. reflexivity.
  - destruct W as [Hk W]. destruct (z31 b Hk) as [Hn Hr]. rewrite expect_number_int by exact Hn.
    rewrite Hr. destruct (b =? a)%Z; [apply IH; assumption|discriminate].
Qed.

Fixpoint first_parse {R} (hs : list (list titem * (list tval -> option R))) (s : bytes) : option R :=
  match hs with
  | [] => None
  | (t, h) :: hs' => match parse_tmpl t s with Some vals => h vals | None => first_parse hs' s end
  end.

Lemma first_parse_build {R} (hs : list (list titem * (list tval -> option R))) n t h vs :
  nth_error hs n = Some (t, h) -> forallb (fun p => diverge (fst p) t) (firstn n hs) = true ->
  wf_tv t vs -> first_parse hs (build_tmpl t vs) = h vs.
Proof.
  intros E D W. revert hs E D.
  induction n as [|n IH]; intros [|[t' h'] hs] E D; try discriminate;
    cbn [nth_error firstn forallb fst first_parse] in *.
  - injection E as -> ->. rewrite (parse_build _ _ W). reflexivity.
  - apply andb_prop in D. destruct D as [D1 D2]. rewrite (parse_diverge t' _ _ W D1). exact (IH hs E D2).
Qed.
