(** Invariants of the payment bookkeeping (Model/Payments.v) over every history of commitment
    updates on several channels, invoice approvals and restarts. *)
From VLS Require Import Base.U64 Model.Payments Proofs.RustFacts.
From Coq Require Import ZifyBool ZifyN ZifyNat.
From Coq Require Permutation.

Local Open Scope N_scope.

Lemma hhas_in m h : hhas m h = true <-> In h (hkeys m).
Proof.
  induction m as [|[k v] m IH]; cbn [hhas hkeys map fst In].
  - split; [discriminate | contradiction].
  - rewrite orb_true_iff, IH, N.eqb_eq. tauto.
Qed.

Lemma hget_notin m h : ~ In h (hkeys m) -> hget m h = 0.
Proof.
  induction m as [|[k v] m IH]; cbn [hget hkeys map fst In]; intros H; [reflexivity|].
  destruct (N.eqb_spec k h); [tauto | apply IH; tauto].
Qed.

Definition summary (p : pchan) (nh nc : option content) (h : N) : N * N :=
  (in_val p nh nc h, out_val p nh nc h).

Lemma summary_notin p nh nc h :
  existsb (N.eqb h) (sum_keys p nh nc) = false ->
  summary p nh nc h = (0, 0) /\ summary p None None h = (0, 0).
Proof.
  intros E. assert (H : ~ In h (sum_keys p nh nc)) by (rewrite <- existsb_in, E; discriminate).
  revert H. unfold summary, sum_keys, in_keys, out_keys, in_val, out_val.
  rewrite !in_app_iff, filter_In. cbn [opt_or]. intros H.
  rewrite !(hget_notin (oout _)) by tauto.
  destruct (hhas (oin (hcur p)) h) eqn:E1; [apply hhas_in in E1; tauto|].
  destruct (hhas (oin (opt_or nh (hcur p))) h) eqn:E2, (hhas (oin (opt_or nc (ccur p))) h) eqn:E3; try tauto.
  apply hhas_in in E2. tauto.
Qed.

Lemma chan_ids_in n c : In c (chan_ids n) <-> c < N.of_nat n.
Proof.
  induction n as [|n IH]; cbn [chan_ids]; [split; [contradiction | lia]|].
  rewrite in_app_iff, IH. cbn [In]. lia.
Qed.

Lemma chan_ids_nodup n : NoDup (chan_ids n).
Proof.
  induction n as [|n IH]; cbn [chan_ids]; [constructor|].
  eapply Permutation.Permutation_NoDup; [apply Permutation.Permutation_cons_append|]. constructor; [rewrite chan_ids_in; lia | exact IH].
Qed.

Lemma sum_chan_ids_S n (f : N -> N) :
  sum_N (map f (chan_ids (S n))) = sum_N (map f (chan_ids n)) + f (N.of_nat n).
Proof. cbn [chan_ids]. rewrite map_app, sum_N_app. cbn [map sum_N]. lia. Qed.

Lemma sum_replace n (f g : N -> N) ch :
  ch < N.of_nat n -> (forall c, c <> ch -> g c = f c) ->
  sum_N (map g (chan_ids n)) + f ch = sum_N (map f (chan_ids n)) + g ch /\ f ch <= sum_N (map f (chan_ids n)).
Proof.
  induction n as [|n IH]; intros Hc Hg; [lia|]. rewrite !sum_chan_ids_S.
  destruct (N.eq_dec ch (N.of_nat n)) as [->|Hne].
  - rewrite (map_ext_in g f); [lia|]. intros x Hx. apply Hg. apply chan_ids_in in Hx. lia.
  - rewrite (Hg (N.of_nat n)) by auto. specialize (IH ltac:(lia) Hg). lia.
Qed.

Lemma fold_apply p nh nc ch keys : forall k l,
  let r := fold_left (apply_one p nh nc ch) keys (k, l) in
  (forall h, fst r h = existsb (N.eqb h) keys || k h) /\
  (forall h c, snd r h c = if existsb (N.eqb h) keys && (c =? ch) then summary p nh nc h else l h c).
Proof.
  induction keys as [|x keys IH]; intros k l; cbn [fold_left existsb]; [split; intros; reflexivity|].
  destruct (IH (upd k x true) (upd l x (upd (l x) ch (summary p nh nc x)))) as [IH1 IH2].
  split; intros h; [|intros c]; rewrite ?IH1, ?IH2; unfold upd;
    destruct (existsb (N.eqb h) keys); destruct (N.eqb_spec h x) as [->|_]; try reflexivity.
  destruct (c =? ch); reflexivity.
Qed.

Lemma apply_payments_eq s ch nh nc :
  apply_payments s ch nh nc =
  let r := fold_left (apply_one (chans s ch) nh nc ch) (sum_keys (chans s ch) nh nc) (known s, led s) in
  mkPN (inv s) (fst r) (snd r) (chans s) (pre s).
Proof. unfold apply_payments. destruct (fold_left _ _ _). reflexivity. Qed.

Lemma apply_fields s ch nh nc :
  let s' := apply_payments s ch nh nc in inv s' = inv s /\ chans s' = chans s /\ pre s' = pre s.
Proof. rewrite apply_payments_eq. repeat split. Qed.

Lemma apply_known s ch nh nc h :
  known (apply_payments s ch nh nc) h = existsb (N.eqb h) (sum_keys (chans s ch) nh nc) || known s h.
Proof. rewrite apply_payments_eq. apply fold_apply. Qed.

Lemma apply_led s ch nh nc h c :
  led (apply_payments s ch nh nc) h c =
  if existsb (N.eqb h) (sum_keys (chans s ch) nh nc) && (c =? ch) then summary (chans s ch) nh nc h else led s h c.
Proof. rewrite apply_payments_eq. apply fold_apply. Qed.

Lemma restore_fold (chf : N -> pchan) : forall (chs : list N) k l,
  let r := fold_left restore_chan (map (fun c => (c, chf c)) chs) (k, l) in
  (forall h, k h = true -> fst r h = true) /\
  (forall h c, snd r h c =
     if existsb (N.eqb c) chs && existsb (N.eqb h) (sum_keys (chf c) None None)
     then summary (chf c) None None h else l h c).
Proof.
  induction chs as [|x chs IH]; intros k l; cbn [map fold_left existsb]; [split; intros; auto|].
  change (restore_chan (k, l) (x, chf x))
    with (fold_left (apply_one (chf x) None None x) (sum_keys (chf x) None None) (k, l)).
  pose proof (fold_apply (chf x) None None x (sum_keys (chf x) None None) k l) as [F1 F2].
  destruct (fold_left (apply_one (chf x) None None x) _ (k, l)) as [k1 l1]. cbn [fst snd] in F1, F2.
  destruct (IH k1 l1) as [I1 I2]. split.
  - intros h Hh. apply I1. rewrite F1, Hh. apply orb_true_r.
  - intros h c. rewrite I2, F2, (N.eqb_sym c x). destruct (N.eqb_spec x c) as [->|_]; [|rewrite andb_false_r; reflexivity].
    rewrite andb_true_r. destruct (existsb (N.eqb c) chs), (existsb (N.eqb h) (sum_keys (chf c) None None)); reflexivity.
Qed.

Section Node.
Variable nch : nat.
Variables max_fee_msat max_fee_pct : N.

Notation in_total := (in_total nch).
Notation out_total := (out_total nch).
Notation validate_payments := (validate_payments nch max_fee_msat max_fee_pct).
Notation pstep := (pstep nch max_fee_msat max_fee_pct).

Lemma totals_ext s s' h :
  (forall c, c < N.of_nat nch -> led s' h c = led s h c) ->
  in_total s' h = in_total s h /\ out_total s' h = out_total s h.
Proof.
  intros H. unfold Payments.in_total, Payments.out_total.
  split; f_equal; apply map_ext_in; intros c Hc; rewrite H by (apply chan_ids_in, Hc); reflexivity.
Qed.

Lemma restore_eq s :
  restore nch s =
  let r := fold_left restore_chan (map (fun c => (c, chans s c)) (chan_ids nch))
             (fun h => match inv s h with Some _ => true | None => pre s h end, fun _ _ => (0, 0)) in
  mkPN (inv s) (fst r) (snd r) (chans s) (pre s).
Proof. unfold restore. destruct (fold_left _ _ _). reflexivity. Qed.

Definition Sync (s : pnode) : Prop :=
  forall ch h, ch < N.of_nat nch -> led s h ch = summary (chans s ch) None None h.

Definition NoOverpay (s : pnode) : Prop :=
  forall h a, inv s h = Some a -> out_total s h * 1000 <= in_total s h * 1000 + a + max_fee_msat.

Definition KnownInv (s : pnode) : Prop := forall h a, inv s h = Some a -> known s h = true.

Record PInv (s : pnode) : Prop := { pi_sync : Sync s; pi_pay : NoOverpay s; pi_known : KnownInv s }.

Lemma PInv_ext s s' :
  inv s' = inv s ->
  (forall h c, c < N.of_nat nch -> led s' h c = led s h c) ->
  (forall c h, c < N.of_nat nch -> summary (chans s' c) None None h = summary (chans s c) None None h) ->
  (forall h a, inv s h = Some a -> known s' h = true) ->
  PInv s -> PInv s'.
Proof.
  intros Hi Hl Hc Hk [Hs Hp Hn]. constructor.
  - intros c h Hr. rewrite Hl, Hc by exact Hr. apply Hs, Hr.
  - intros h a. rewrite Hi. destruct (totals_ext s s' h (fun c => Hl h c)) as [-> ->]. apply Hp.
  - intros h a. rewrite Hi. apply Hk.
Qed.

Lemma apply_row s ch nh nc h :
  Sync s -> ch < N.of_nat nch ->
  led (apply_payments s ch nh nc) h ch = summary (chans s ch) nh nc h.
Proof.
  intros Hs Hc. rewrite apply_led, N.eqb_refl, andb_true_r.
  destruct (existsb (N.eqb h) (sum_keys (chans s ch) nh nc)) eqn:E; [reflexivity|].
  rewrite (Hs ch h Hc). destruct (summary_notin _ nh nc h E) as [-> ->]. reflexivity.
Qed.

Lemma apply_other s ch nh nc h c :
  c <> ch -> led (apply_payments s ch nh nc) h c = led s h c.
Proof. intros Hc. rewrite apply_led, (proj2 (N.eqb_neq c ch) Hc), andb_false_r. reflexivity. Qed.

(** totals after an update of channel [ch] are exactly what the validation looked at *)
Lemma totals_after s ch nh nc h :
  Sync s -> ch < N.of_nat nch ->
  let s' := apply_payments s ch nh nc in
  (in_total s' h, out_total s' h) =
  upd_totals nch s h ch (in_val (chans s ch) nh nc h) (out_val (chans s ch) nh nc h).
Proof.
  intros Hs Hc s'. unfold upd_totals, Payments.in_total, Payments.out_total.
  assert (Hoth : forall c, c <> ch -> led s' h c = led s h c) by (intros; apply apply_other; assumption).
  destruct (sum_replace nch (fun c => fst (led s h c)) (fun c => fst (led s' h c)) ch Hc) as [Hi Gi];
    [intros c Hn; rewrite Hoth by exact Hn; reflexivity|].
  destruct (sum_replace nch (fun c => snd (led s h c)) (fun c => snd (led s' h c)) ch Hc) as [Ho Go];
    [intros c Hn; rewrite Hoth by exact Hn; reflexivity|].
  cbv beta in *. subst s'. rewrite (apply_row s ch nh nc h Hs Hc) in Hi, Ho. cbn [summary fst snd] in Hi, Ho.
  f_equal; lia.
Qed.

Lemma balance_ok_covered i o iv :
  balance_ok max_fee_msat max_fee_pct i o iv = true ->
  o <= i + match iv with Some a => a + max_fee_msat | None => 0 end.
Proof.
  unfold balance_ok. cbv zeta. destruct (_ <? o) eqn:E; [discriminate|]. intros _. lia.
Qed.

Lemma update_keeps s ch nh nc p' :
  PInv s -> ch < N.of_nat nch ->
  validate_payments s ch nh nc = true ->
  (forall h, summary p' None None h = summary (chans s ch) nh nc h) ->
  PInv (set_chan (apply_payments s ch nh nc) ch p').
Proof.
  intros [Hs Hp Hk] Hc Hv Hsum. destruct (apply_fields s ch nh nc) as (Ei & Ec & _). constructor.
  - intros c h Hcr. cbn [set_chan led chans]. unfold upd.
    destruct (N.eqb_spec c ch) as [->|E].
    + rewrite apply_row by assumption. symmetry. apply Hsum.
    + rewrite apply_other, Ec by exact E. apply Hs, Hcr.
  - intros h a. cbn [set_chan inv]. rewrite Ei. intros Ha.
    change (Payments.in_total nch (set_chan ?x ch p') h) with (in_total x h).
    change (Payments.out_total nch (set_chan ?x ch p') h) with (out_total x h).
    destruct (existsb (N.eqb h) (sum_keys (chans s ch) nh nc)) eqn:E.
    + (* the hash was looked at by the validation *)
      apply existsb_in in E. unfold Payments.validate_payments in Hv. rewrite forallb_forall in Hv.
      specialize (Hv h E). unfold hash_ok in Hv. rewrite (Hk h a Ha), Ha in Hv. cbn [andb] in Hv.
      pose proof (totals_after s ch nh nc h Hs Hc) as Ht. cbv zeta in Ht.
      destruct (upd_totals nch s h ch _ _) as [i o]. inversion Ht as [[Hi Ho]]. rewrite Hi, Ho.
      rewrite orb_false_r in Hv. apply balance_ok_covered in Hv. lia.
    + (* untouched hash: same totals as before *)
      destruct (totals_ext s (apply_payments s ch nh nc) h) as [-> ->]; [|apply (Hp h a Ha)].
      intros c _. rewrite apply_led, E. reflexivity.
  - intros h a. cbn [set_chan inv known]. rewrite Ei, apply_known. intros Ha. rewrite (Hk h a Ha). apply orb_true_r.
Qed.

Lemma restore_led s h c :
  Sync s -> c < N.of_nat nch -> led (restore nch s) h c = led s h c.
Proof.
  intros Hs Hc. rewrite restore_eq. cbv zeta. cbn [led].
  rewrite (proj2 (restore_fold (chans s) (chan_ids nch) _ _)).
  rewrite (proj2 (existsb_in c _) (proj2 (chan_ids_in nch c) Hc)), (Hs c h Hc). cbn [andb].
  destruct (existsb (N.eqb h) _) eqn:E; [reflexivity | symmetry; apply (summary_notin _ _ _ _ E)].
Qed.

Lemma restore_known s h :
  match inv s h with Some _ => true | None => pre s h end = true -> known (restore nch s) h = true.
Proof.
  intros H. rewrite restore_eq. cbv zeta. cbn [known].
  apply (proj1 (restore_fold (chans s) (chan_ids nch) _ _)), H.
Qed.

Lemma restore_keeps s : PInv s -> PInv (restore nch s).
Proof.
  intros HI. apply (PInv_ext s); [| | | |exact HI]; try (rewrite restore_eq; reflexivity).
  - intros h c. apply restore_led, HI.
  - intros h a Ha. apply restore_known. rewrite Ha. reflexivity.
Qed.

(** invoices are approved before the payment is attempted: an approval for a hash that has
    none yet arrives while nothing is in flight towards it *)
Definition fresh_invoice (s : pnode) (o : pop) : Prop :=
  match o with
  | PAddInvoice h _ => inv s h = None -> out_total s h = 0
  | _ => True
  end.

(** what a request can do to the node: nothing, a new approval, an accepted update of a channel's
    current commitments (validated first), a new pending holder commitment, a preimage, the
    heartbeat's pruning, a restart *)
Lemma pstep_cases (P : pnode -> Prop) s o :
  P s ->
  (forall h a, o = PAddInvoice h a -> inv s h = None ->
     P (mkPN (upd (inv s) h (Some a)) (upd (known s) h true) (led s) (chans s) (pre s))) ->
  (forall ch nh nc p', ch < N.of_nat nch -> validate_payments s ch nh nc = true ->
     (forall h, summary p' None None h = summary (chans s ch) nh nc h) ->
     P (set_chan (apply_payments s ch nh nc) ch p')) ->
  (forall ch p', hcur p' = hcur (chans s ch) -> ccur p' = ccur (chans s ch) -> P (set_chan s ch p')) ->
  (forall h, P (mkPN (inv s) (known s) (led s) (chans s) (fun x => pre s x || ((x =? h) && known s h)))) ->
  P (mkPN (inv s) (fun h => known s h && negb (prunable nch s h)) (led s) (chans s)
          (fun h => pre s h && negb (prunable nch s h))) ->
  P (restore nch s) ->
  P (fst (pstep s o)).
Proof.
  intros H0 Ha Hu Hp Hf Hh Hr.
  assert (Hlt : forall ch, in_range nch ch = true -> ch < N.of_nat nch) by (unfold in_range; lia).
  destruct o as [h a|ch c ok|ch c ok|ch|hf| |]; cbn [Payments.pstep]; [| | | |apply Hf|exact Hh|exact Hr].
  - destruct (inv s h) eqn:E; [exact H0 | exact (Ha h a eq_refl E)].
  - destruct (in_range nch ch) eqn:E1, ok; cbn [negb orb fst]; try exact H0.
    destruct (validate_payments s ch None (Some c)) eqn:E2; cbn [negb fst]; [|exact H0].
    apply Hu; [apply Hlt, E1 | exact E2 | reflexivity].
  - destruct (negb (in_range nch ch) || negb ok); [exact H0|].
    destruct (negb (validate_payments s ch (Some c) None)); [exact H0 | apply Hp; reflexivity].
  - destruct (in_range nch ch) eqn:E1; cbn [negb fst]; [|exact H0].
    destruct (hnxt (chans s ch)) as [c|]; [|exact H0].
    destruct (validate_payments s ch (Some c) None) eqn:E2; cbn [negb fst]; [|exact H0].
    apply Hu; [apply Hlt, E1 | exact E2 | reflexivity].
Qed.

Theorem pstep_keeps s o : PInv s -> fresh_invoice s o -> PInv (fst (pstep s o)).
Proof.
  intros HI Hf. apply pstep_cases.
  - exact HI.
  - intros h a -> Ei. destruct HI as [Hs Hp Hk]. specialize (Hf Ei). constructor.
    + exact Hs.
    + intros h' a'. cbn [inv]. unfold upd.
      change (Payments.in_total nch (mkPN ?i ?k (led s) ?c ?p) h') with (in_total s h').
      change (Payments.out_total nch (mkPN ?i ?k (led s) ?c ?p) h') with (out_total s h').
      destruct (N.eqb_spec h' h) as [->|_]; [rewrite Hf; lia | apply Hp].
    + intros h' a'. cbn [inv known]. unfold upd. destruct (h' =? h); [reflexivity | apply Hk].
  - intros ch nh nc p'. apply update_keeps, HI.
  - intros ch p' H1 H2. apply (PInv_ext s); try reflexivity; [|apply HI|exact HI].
    intros c h _. cbn [set_chan chans]. unfold upd. destruct (N.eqb_spec c ch) as [->|_]; [|reflexivity].
    unfold summary, in_val, out_val. rewrite H1, H2. reflexivity.
  - intros h. apply (PInv_ext s); try reflexivity; [apply HI | exact HI].
  - (* heartbeat: only records without approval are dropped *)
    apply (PInv_ext s); try reflexivity; [|exact HI].
    intros h a Ha. cbn [known]. unfold prunable. rewrite Ha, (pi_known s HI h a Ha). reflexivity.
  - apply restore_keeps, HI.
Qed.

Lemma PInv_init : PInv pinit.
Proof.
  constructor.
  - intros ch h _. reflexivity.
  - intros h a H. discriminate.
  - intros h a H. discriminate.
Qed.

Fixpoint fresh_history (s : pnode) (ops : list pop) : Prop :=
  match ops with
  | [] => True
  | o :: r => fresh_invoice s o /\ fresh_history (fst (pstep s o)) r
  end.

Theorem prun_keeps ops : forall s, PInv s -> fresh_history s ops -> PInv (prun nch max_fee_msat max_fee_pct s ops).
Proof.
  induction ops as [|o ops IH]; intros s HI Hf; cbn [prun]; [exact HI|].
  destruct Hf as [Hf Hr]. apply IH; [apply pstep_keeps; assumption | exact Hr].
Qed.

Definition PreKnown (s : pnode) : Prop := forall h, pre s h = true -> known s h = true.

Lemma restart_keeps_pre s h :
  pre s h = true -> pre (restore nch s) h = true /\ known (restore nch s) h = true.
Proof.
  intros Hp. split; [rewrite restore_eq; exact Hp|].
  apply restore_known. destruct (inv s h); [reflexivity | exact Hp].
Qed.

Lemma pstep_pre_known s o : PreKnown s -> PreKnown (fst (pstep s o)).
Proof.
  intros HP. apply pstep_cases; [exact HP|..]; intros; intros x; cbn [set_chan pre known].
  - intros Hx. unfold upd. destruct (x =? h); [reflexivity | apply HP, Hx].
  - rewrite (proj2 (proj2 (apply_fields s ch nh nc))), apply_known. intros Hx. rewrite (HP x Hx). apply orb_true_r.
  - apply HP.
  - rewrite orb_true_iff, andb_true_iff, N.eqb_eq. intros [Hx|[-> Hk]]; [apply HP, Hx | exact Hk].
  - rewrite !andb_true_iff. intros [Hx Hn]. split; [apply HP, Hx | exact Hn].
  - intros Hx. rewrite restore_eq in Hx. apply (restart_keeps_pre s x), Hx.
Qed.

Lemma PreKnown_init : PreKnown pinit.
Proof. intros h H. discriminate. Qed.

Lemma prun_pre_known ops : forall s, PreKnown s -> PreKnown (prun nch max_fee_msat max_fee_pct s ops).
Proof.
  induction ops as [|o ops IH]; intros s HP; cbn [prun]; [exact HP|].
  apply IH, pstep_pre_known, HP.
Qed.

(** an update that brings outgoing value for a hash without invoice and without a payment
    record is accepted only if that value is covered by incoming value in the same update *)
Lemma unbacked_refused s ch nh nc h :
  validate_payments s ch nh nc = true ->
  inv s h = None -> known s h = false ->
  out_val (chans s ch) nh nc h <= in_val (chans s ch) nh nc h.
Proof.
  intros Hv Hi Hk.
  destruct (existsb (N.eqb h) (sum_keys (chans s ch) nh nc)) eqn:E.
  - apply existsb_in in E. unfold Payments.validate_payments in Hv. rewrite forallb_forall in Hv.
    specialize (Hv h E). unfold hash_ok in Hv. rewrite Hk, Hi in Hv. cbn [andb] in Hv. rewrite orb_false_r in Hv.
    apply balance_ok_covered in Hv. lia.
  - destruct (summary_notin _ nh nc h E) as [H _]. injection H as -> ->. lia.
Qed.

Lemma accepted_validated s ch c :
  (snd (pstep s (PSignCp ch c true)) = true -> validate_payments s ch None (Some c) = true) /\
  (hnxt (chans s ch) = Some c -> snd (pstep s (PRevoke ch)) = true -> validate_payments s ch (Some c) None = true).
Proof.
  split; [|intros Hn]; cbn [Payments.pstep]; rewrite ?Hn; destruct (negb (in_range nch ch)); cbn [orb negb snd];
    try discriminate; destruct (Payments.validate_payments _ _ _ _ _ _ _); cbn [negb snd]; auto.
Qed.

End Node.
