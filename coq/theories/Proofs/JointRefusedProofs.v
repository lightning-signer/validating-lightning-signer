(** C10 over joint histories: a commitment request that the node as a whole refuses - whether the
    enforcement state machine of its channel or the node-wide payment check said no - leaves the
    payment bookkeeping and every channel as they were. *)
From VLS Require Import Base.U64 Model.Joint Proofs.EnforcementProofs Proofs.JointProofs.
Require Import Lia.

Section JR.
Variable warn : tag -> bool.
Variable prof : profile.

Lemma oN_eqb_refl x : oN_eqb x x = true.
Proof. destruct x; cbn; [apply N.eqb_refl | reflexivity]. Qed.

Lemma ops_for_other ch ch' o : (ch =? ch') = false -> ops_for ch' [(ch, o)] = [].
Proof. intros E. unfold ops_for. cbn [filter fst]. rewrite E. reflexivity. Qed.

(** a plan that sends one single request to one durable channel and replies with that request's
    reply, refused: the slot stays (Proofs/EnforcementModel.v), and if the plan then holds no
    payment request nothing else moves either *)
Lemma exec_refused nch mf mp s pops ch eo :
  single eo -> slot_durable (fst (jc s ch)) ->
  st (snd (gstep warn prof (jc s ch) eo)) = Refused ->
  (fst (fst (gstep warn prof (jc s ch) eo)) = fst (jc s ch) -> pops = []) ->
  let s' := fst (exec warn prof nch mf mp s
                   (with_crash nch (pops, [(ch, eo)], snd (gstep warn prof (jc s ch) eo)))) in
  jp s' = jp s /\ forall ch', fst (jc s' ch') = fst (jc s ch').
Proof.
  intros Hp Hd Hr Hpops.
  assert (Hs : fst (fst (gstep warn prof (jc s ch) eo)) = fst (jc s ch)).
  { rewrite gstep_slot. rewrite gstep_out in Hr.
    apply step_quiet; [apply slot_durable_crash, Hd | exact Hp | congruence]. }
  unfold with_crash. rewrite Hr, (Hpops Hs). unfold exec. cbn [fst jp jc P.prun].
  split; [reflexivity|]. intros ch'. destruct (ch =? ch') eqn:E.
  - apply N.eqb_eq in E. subst ch'. rewrite ops_for_one. cbn [grun]. exact Hs.
  - rewrite (ops_for_other _ _ _ E). reflexivity.
Qed.

Lemma exec_none nch mf mp s :
  let s' := fst (exec warn prof nch mf mp s (with_crash nch ([], [], refused))) in
  jp s' = jp s /\ forall ch', fst (jc s' ch') = fst (jc s ch').
Proof.
  unfold with_crash. cbn [st refused]. unfold exec. cbn [fst jp jc P.prun ops_for filter map grun].
  split; [reflexivity | intros; reflexivity].
Qed.

Theorem joint_refused_changes_nothing nch mf mp jops o :
  Forall jwf jops ->
  let s := jrun warn prof nch mf mp (jinit warn prof) jops in
  st (snd (jstep warn prof nch mf mp s o)) = Refused ->
  jp (fst (jstep warn prof nch mf mp s o)) = jp s /\
  forall ch, fst (jc (fst (jstep warn prof nch mf mp s o)) ch) = fst (jc s ch).
Proof.
  intros Hwf s.
  assert (Hdur : forall ch, slot_durable (fst (jc s ch)))
    by (intros ch; apply (joint_durable warn prof nch mf mp jops ch Hwf)).
  assert (Hsnd : forall pl, snd (exec warn prof nch mf mp s (with_crash nch pl)) = snd pl).
  { intros [[pops cops] r]. unfold with_crash, exec. destruct (st r); reflexivity. }
  unfold jstep. rewrite Hsnd.
  destruct o as [h a|ch n pt cid c pol|ch n cid c sg pol|ch n|ch r pt sec chains|ch n|h| |];
    cbn [plan]; try (cbn [snd st ok0]; discriminate);
    (destruct (negb (P.in_range nch ch)); [intros _; apply exec_none|]);
    cbn [snd]; intros Hr; apply exec_refused; try exact I; try apply Hdur; try exact Hr.
  (* what is left, for the five channel requests in order: the plan sends no payment request when the slot did
     not move - JSignCp and JValidateHolder book only on Ok, JRevoke only when next_h advanced, JCpRevoke and
     JSignHolder never *)
  - rewrite Hr. reflexivity.
  - rewrite Hr. reflexivity.
  - intros ->. rewrite oN_eqb_refl. reflexivity.
  - reflexivity.
  - reflexivity.
Qed.

End JR.

(** C11 over joint histories: a restart of the whole signer is invisible on every channel *)
Theorem joint_restart_invisible warn prof nch mf mp jops ch :
  Forall jwf jops ->
  let s := jrun warn prof nch mf mp (jinit warn prof) jops in
  slot_durable (fst (jc s ch)) /\
  fst (jc (fst (jstep warn prof nch mf mp s JRestart)) ch) = fst (jc s ch).
Proof.
  intros Hwf s.
  pose proof (joint_durable warn prof nch mf mp jops ch Hwf) as Hd. fold s in Hd.
  split; [exact Hd|].
  rewrite jstep_jc. cbn [plan with_crash st ok0 fst snd].
  apply restart_all_identity. exact Hd.
Qed.
