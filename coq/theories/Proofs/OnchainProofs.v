(** Proofs about Model/Onchain.v (validate_onchain_tx, check_onchain_tx, the approver, and the
    fee velocity control across on-chain requests). *)
From VLS Require Import Base.U64 Model.Velocity Model.Onchain Proofs.VelocityProofs.
From VLS Require Proofs.CommitmentPolicyProofs.
From Coq Require Import List.

Lemma sum_checked_some l : forall acc s,
  sum_checked l acc = Some s -> s = acc + sum_N l /\ (acc <= U64MAX -> s <= U64MAX).
Proof.
  induction l as [|v l IH]; intros acc s H; cbn [sum_checked sum_N] in *.
  - inversion H. split; [lia | auto].
  - destruct (add_checked acc v) as [a|] eqn:E; [|discriminate].
    apply CommitmentPolicyProofs.add_checked_some in E. destruct E as [-> Hle].
    destruct (IH _ _ H) as [-> Hs]. split; [lia | auto].
Qed.

Lemma sum_checked_spec l s :
  sum_checked l 0 = Some s -> s = sum_N l /\ sum_N l <= U64MAX.
Proof. intros H. destruct (sum_checked_some _ _ _ H) as [-> Hs]. split; [reflexivity | apply Hs, N.le_0_l]. Qed.

Lemma sum_checked_none l : forall acc, sum_checked l acc = None -> U64MAX < acc + sum_N l.
Proof.
  induction l as [|v l IH]; intros acc H; cbn [sum_checked sum_N] in *; [discriminate|].
  destruct (add_checked acc v) as [a|] eqn:E.
  - apply CommitmentPolicyProofs.add_checked_some in E. destruct E as [-> _]. apply IH in H. lia.
  - unfold add_checked in E. destruct (acc + v <=? U64MAX) eqn:L; [discriminate | lia].
Qed.

Lemma guarded (b w : bool) : (b = true -> w = true) -> w = false -> b = false.
Proof. destruct b, w; intros H1 H2; try reflexivity; try discriminate. specialize (H1 eq_refl). discriminate. Qed.

Lemma unguard (b w : bool) : b && negb w = false -> w = false -> b = false.
Proof. destruct b, w; cbn; congruence. Qed.

Lemma first_err_none warn l :
  first_err warn l = None -> forall b t, In (b, t) l -> warn t = false -> b = false.
Proof.
  induction l as [|[b0 t0] l IH]; cbn [first_err In]; intros H b t Hin; [destruct Hin|].
  destruct (b0 && negb (warn t0)) eqn:E; [discriminate|].
  destruct Hin as [Hin|Hin]; [injection Hin as <- <-; exact (unguard _ _ E) | exact (IH H b t Hin)].
Qed.

Lemma chan_effect_cases warn o c :
  match chan_effect warn o c with
  | EBen v => chan_valid_w warn o c /\ v = c_value c - c_push_msat c / 1000
  | EErr _ => True
  | _ => False
  end.
Proof.
  unfold chan_effect.
  destruct (first_err warn _) as [t|] eqn:E; [exact I|].
  pose proof (first_err_none _ _ E) as G. cbn [In] in G.
  destruct (sub_checked (c_value c) (c_push_msat c / 1000)) as [v|] eqn:S; [|exact I].
  apply CommitmentPolicyProofs.sub_checked_some in S. destruct S as [Hle ->].
  split; [|reflexivity]. unfold chan_valid_w. repeat split; try exact Hle; intros W.
  - apply N.eqb_eq, negb_false_iff, (G _ _ (or_introl eq_refl) W).
  - apply negb_false_iff, (G _ _ (or_intror (or_introl eq_refl)) W).
  - apply N.eqb_eq, negb_false_iff, (G _ _ (or_intror (or_intror (or_introl eq_refl))) W).
  - apply negb_false_iff, (G _ _ (or_intror (or_intror (or_intror (or_introl eq_refl)))) W).
  - apply N.le_0_r, N.ltb_ge, (G _ _ (or_intror (or_intror (or_intror (or_intror (or_introl eq_refl))))) W).
Qed.

Lemma effect_cases warn o :
  match effect warn o with
  | EBen v => passable warn o /\ v = counted o /\ unclassified o = false
  | ESkip => passable warn o /\ counted o = 0 /\ unclassified o = false
  | EUnk => unclassified o = true /\ counted o = 0
  | EErr _ | EPanic => unclassified o = false
  end.
Proof.
  unfold effect, passable, counted, unclassified, has_chan.
  destruct (o_path o).
  - reflexivity.
  - destruct (o_allow_script o) eqn:A; cbn [negb andb].
    + repeat split. left. reflexivity.
    + destruct (o_chan o) as [c|] eqn:C; cbn [negb].
      * pose proof (chan_effect_cases warn o c) as H.
        destruct (chan_effect warn o c); try contradiction; try reflexivity.
        destruct H as [Hv ->]. repeat split. right. split; [reflexivity|].
        exists c. split; [reflexivity | exact Hv].
      * split; reflexivity.
  - destruct (o_can_spend o) as [[|]|].
    + repeat split. left. reflexivity.
    + destruct (o_allow_path o) as [[|]|].
      * repeat split. right. split; [reflexivity|]. left. reflexivity.
      * destruct (warn T_no_unknown_outputs) eqn:W; [|reflexivity].
        repeat split. right. split; [reflexivity|]. right. split; reflexivity.
      * reflexivity.
    + reflexivity.
Qed.

Lemma quiet_passable warn o : quiet warn o -> unclassified o = false -> passable warn o.
Proof.
  unfold quiet. pose proof (effect_cases warn o) as E.
  destruct (effect warn o); try contradiction; intros _ U; try apply E. destruct E. congruence.
Qed.

Lemma effect_unclassified warn o : unclassified o = true -> effect warn o = EUnk.
Proof.
  unfold unclassified, effect, has_chan. destruct (o_path o); try discriminate.
  destruct (o_allow_script o); cbn [negb andb]; [discriminate|].
  destruct (o_chan o); cbn [negb]; [discriminate | reflexivity].
Qed.

Lemma out_loop_quiet_step warn o r i sum unk :
  quiet warn o -> sum <= U64MAX ->
  out_loop warn (o :: r) i sum unk =
  match add_checked sum (counted o) with
  | None => LErr T_fee_range
  | Some s => out_loop warn r (i + 1) s (if unclassified o then unk ++ [i] else unk)
  end.
Proof.
  unfold quiet. intros Q B. cbn [out_loop]. pose proof (effect_cases warn o) as E.
  assert (Z : add_checked sum 0 = Some sum)
    by (unfold add_checked; rewrite N.add_0_r, (proj2 (N.leb_le _ _) B); reflexivity).
  destruct (effect warn o) as [v| | |t|]; try contradiction.
  - destruct E as (_ & -> & ->). reflexivity.
  - destruct E as (_ & -> & ->). rewrite Z. reflexivity.
  - destruct E as (-> & ->). rewrite Z. reflexivity.
Qed.

Lemma out_loop_done warn outs : forall i sum unk s u,
  sum <= U64MAX -> out_loop warn outs i sum unk = LDone s u ->
  Forall (quiet warn) outs /\
  s = sum + sum_N (map counted outs) /\ s <= U64MAX /\
  u = unk ++ unknown_idx_from i outs.
Proof.
  induction outs as [|o r IH]; intros i sum unk s u B H; cbn [map sum_N unknown_idx_from].
  - injection H as <- <-. rewrite app_nil_r, N.add_0_r. repeat split; [constructor | exact B].
  - assert (Q : quiet warn o)
      by (unfold quiet; cbn [out_loop] in H; destruct (effect warn o); try exact I; discriminate H).
    rewrite (out_loop_quiet_step warn o r i sum unk Q B) in H.
    destruct (add_checked sum (counted o)) as [a|] eqn:A; [|discriminate].
    apply CommitmentPolicyProofs.add_checked_some in A. destruct A as [-> Hle].
    destruct (IH _ _ _ _ _ Hle H) as (F & -> & Bs & ->).
    split; [constructor; assumption|]. split; [lia|]. split; [exact Bs|].
    destruct (unclassified o); [rewrite <- app_assoc|]; reflexivity.
Qed.

Lemma counted_sum_overflow_loop warn outs : forall i sum unk s u,
  out_loop warn outs i sum unk = LDone s u -> sum <= U64MAX -> sum + sum_N (map counted outs) <= U64MAX.
Proof.
  intros i sum unk s u H B. destruct (out_loop_done _ _ _ _ _ _ _ B H) as (_ & <- & Bs & _). exact Bs.
Qed.

Lemma out_loop_quiet warn outs : forall i sum unk,
  Forall (quiet warn) outs ->
  sum + sum_N (map counted outs) <= U64MAX ->
  out_loop warn outs i sum unk =
    LDone (sum + sum_N (map counted outs)) (unk ++ unknown_idx_from i outs).
Proof.
  induction outs as [|o r IH]; intros i sum unk F B; cbn [map sum_N unknown_idx_from] in *.
  - cbn [out_loop]. rewrite app_nil_r, N.add_0_r. reflexivity.
  - inversion F as [|? ? Q F']; subst.
    rewrite (out_loop_quiet_step warn o r i sum unk Q) by lia.
    unfold add_checked. destruct (N.leb_spec (sum + counted o) U64MAX); [|lia].
    rewrite IH, N.add_assoc; [|exact F' | lia].
    destruct (unclassified o); [rewrite <- app_assoc|]; reflexivity.
Qed.

Lemma quiet_no_unknown warn outs : forall i,
  Forall (quiet warn) outs -> unknown_idx_from i outs = [] -> Forall (passable warn) outs.
Proof.
  induction outs as [|o r IH]; intros i F U; [constructor|].
  inversion F as [|? ? Q F']; subst. cbn [unknown_idx_from] in U.
  destruct (unclassified o) eqn:Uo; [discriminate|].
  constructor; [apply quiet_passable; assumption | eapply IH; eassumption].
Qed.

Lemma validate_beneficial_cases warn pol sin ben w :
  match validate_beneficial warn pol sin ben w with
  | VOk nbv =>
      ben <= sin /\ nbv = sin - ben /\ w <> 0 /\
      (warn T_fee_range = false -> disable_beneficial pol = false -> max_feerate pol < U32MAX ->
         nbv * 1000 + 999 < (max_feerate pol + 1) * w)
  | VUnknown _ => False
  | VErr _ | VPanic => True
  end.
Proof.
  unfold validate_beneficial. destruct (sub_checked sin ben) as [d|] eqn:D; [|exact I].
  apply CommitmentPolicyProofs.sub_checked_some in D. destruct D as [Dle ->].
  destruct (N.eqb_spec w 0) as [|W0]; [exact I|].
  destruct ((max_feerate pol <? estimate _ w) && negb (disable_beneficial pol) && negb (warn T_fee_range)) eqn:R;
    [exact I|].
  repeat split; try assumption. intros Wf Dis Mx. rewrite Dis, Wf in R. cbn [negb] in R. rewrite !andb_true_r in R.
  apply N.ltb_ge in R. apply (CommitmentPolicyProofs.estimate_window _ w 0); [assumption..|].
  unfold estimate in R. lia.
Qed.

Definition gates_open (warn : otag -> bool) (tx : txcase) : Prop :=
  (warn T_format_standard = false -> t_version_two tx = true) /\
  (warn T_max_size = false -> t_base_size tx <= MAX_ONCHAIN_TX_SIZE) /\
  (any_chan (t_outputs tx) = true ->
     N.of_nat (length (t_flags tx)) = t_n_txin tx /\
     (warn T_non_malleable = false -> Forall (fun b => b = true) (t_flags tx))).

Definition after_gates (warn : otag -> bool) (pol : opolicy) (tx : txcase) : vres :=
  match out_loop warn (t_outputs tx) 0 0 [] with
  | LPanic => VPanic
  | LErr t => VErr t
  | LDone ben unk =>
      if negb (length unk =? 0)%nat then VUnknown unk
      else
        match sum_checked (t_values tx) 0 with
        | None => VErr T_fee_range
        | Some sin => validate_beneficial warn pol sin ben (t_weight tx)
        end
  end.

Lemma validate_onchain_cases warn pol tx :
  match validate_onchain warn pol tx with
  | VErr _ | VPanic => True
  | r => gates_open warn tx /\ after_gates warn pol tx = r
  end.
Proof.
  unfold validate_onchain. fold (after_gates warn pol tx).
  destruct (negb (t_version_two tx) && negb (warn T_format_standard)) eqn:V; [exact I|].
  destruct ((MAX_ONCHAIN_TX_SIZE <? t_base_size tx) && negb (warn T_max_size)) eqn:S; [exact I|].
  destruct (if any_chan (t_outputs tx) then non_malleable tx else Some true) as [nm|] eqn:M; [|exact I].
  destruct (negb nm && negb (warn T_non_malleable)) eqn:NM; [exact I|].
  assert (G : gates_open warn tx).
  { split; [|split].
    - intros Wf. apply negb_false_iff, (unguard _ _ V Wf).
    - intros Wf. apply N.ltb_ge, (unguard _ _ S Wf).
    - intros A. rewrite A in M. unfold non_malleable in M.
      destruct (N.eqb_spec (N.of_nat (length (t_flags tx))) (t_n_txin tx)) as [Len|]; [|discriminate].
      split; [exact Len|]. intros Wf. injection M as <-.
      apply Forall_forall, forallb_forall, negb_false_iff, (unguard _ _ NM Wf). }
  destruct (after_gates warn pol tx); try exact I; split; auto.
Qed.

Lemma validate_onchain_open warn pol tx :
  gates_open warn tx -> validate_onchain warn pol tx = after_gates warn pol tx.
Proof.
  intros (V & S & M). unfold validate_onchain. fold (after_gates warn pol tx).
  assert (G : forall b w, (w = false -> b = false) -> b && negb w = false)
    by (intros b [] H; [apply andb_false_r | rewrite H; reflexivity]).
  rewrite G by (intros W; rewrite (V W); reflexivity).
  rewrite G by (intros W; apply N.ltb_ge, S, W).
  destruct (any_chan (t_outputs tx)); [|reflexivity].
  destruct (M eq_refl) as [L F]. unfold non_malleable. rewrite (proj2 (N.eqb_eq _ _) L).
  rewrite G; [reflexivity|]. intros W. apply negb_false_iff, forallb_forall, Forall_forall, F, W.
Qed.

(** everything an accepted transaction went through, for an arbitrary filter: each conjunct can
    only be missing when its own tag is downgraded *)
Theorem validate_ok_facts warn pol tx nbv :
  validate_onchain warn pol tx = VOk nbv ->
  (warn T_format_standard = false -> t_version_two tx = true) /\
  (warn T_max_size = false -> t_base_size tx <= MAX_ONCHAIN_TX_SIZE) /\
  (any_chan (t_outputs tx) = true ->
     N.of_nat (length (t_flags tx)) = t_n_txin tx /\
     (warn T_non_malleable = false -> Forall (fun b => b = true) (t_flags tx))) /\
  Forall (passable warn) (t_outputs tx) /\
  unknown_idx (t_outputs tx) = [] /\
  sum_N (t_values tx) <= U64MAX /\
  sum_N (map counted (t_outputs tx)) <= U64MAX /\
  nbv + sum_N (map counted (t_outputs tx)) = sum_N (t_values tx) /\
  t_weight tx <> 0 /\
  (warn T_fee_range = false -> disable_beneficial pol = false -> max_feerate pol < U32MAX ->
     nbv * 1000 + 999 < (max_feerate pol + 1) * t_weight tx).
Proof.
  intros H. pose proof (validate_onchain_cases warn pol tx) as C. rewrite H in C.
  destruct C as [(V & S & M) E]. clear H. unfold after_gates in E.
  split; [exact V|]. split; [exact S|]. split; [exact M|]. clear V S M.
  destruct (out_loop warn (t_outputs tx) 0 0 []) as [ben unk| |] eqn:L; try discriminate.
  destruct unk as [|x unk]; cbn [length Nat.eqb negb] in E; [|discriminate].
  destruct (sum_checked (t_values tx) 0) as [sin|] eqn:SI; [|discriminate].
  apply out_loop_done in L; [|apply N.le_0_l]. destruct L as (F & Hben & Bben & Hunk). cbn [app] in Hunk.
  rewrite N.add_0_l in Hben. subst ben.
  apply sum_checked_spec in SI. destruct SI as [-> Bin].
  pose proof (validate_beneficial_cases warn pol (sum_N (t_values tx)) (sum_N (map counted (t_outputs tx)))
                (t_weight tx)) as VB.
  rewrite E in VB. destruct VB as (Dle & -> & W0 & R).
  split; [eapply quiet_no_unknown; [exact F | symmetry; exact Hunk]|].
  split; [symmetry; exact Hunk|].
  split; [exact Bin|]. split; [exact Bben|]. split; [lia|]. split; [exact W0 | exact R].
Qed.

Lemma strict_passable_beneficial warn o :
  (forall t, warn t = false) -> passable warn o -> beneficial o /\ counted o = o_value o.
Proof.
  intros Hw. unfold passable, beneficial, counted. destruct (o_path o); [tauto| |].
  - intros [A | (A & c & C & V)].
    + rewrite A. split; [left; reflexivity | reflexivity].
    + rewrite A, C. destruct V as (V1 & V2 & V3 & V4 & V5 & V6).
      specialize (V1 (Hw _)). specialize (V2 (Hw _)). specialize (V3 (Hw _)).
      specialize (V4 (Hw _)). specialize (V5 (Hw _)).
      split.
      * right. split; [reflexivity|]. exists c. split; [reflexivity|].
        unfold chan_valid. tauto.
      * rewrite V5, V1. apply N.sub_0_r.
  - intros [A | (A & [B | (B & W)])].
    + rewrite A. split; [left; reflexivity | reflexivity].
    + rewrite A, B. split; [right; split; reflexivity | reflexivity].
    + rewrite Hw in W. discriminate.
Qed.

Lemma strict_counted_values warn outs :
  (forall t, warn t = false) -> Forall (passable warn) outs ->
  Forall beneficial outs /\ map counted outs = out_values outs.
Proof.
  intros Hw. induction 1 as [|o r P F [IH1 IH2]]; cbn [map out_values]; [split; [constructor | reflexivity]|].
  destruct (strict_passable_beneficial warn o Hw P) as [B C].
  split; [constructor; assumption|]. rewrite C. unfold out_values in IH2. rewrite IH2. reflexivity.
Qed.

(** the non-permissive reading: every output goes back to the wallet, to an allowlisted
    destination or into a validated channel, and the non-beneficial value is exactly the
    transaction's fee, within the maximum rate for the weight lower bound *)
Theorem validate_ok_strict warn pol tx nbv :
  (forall t, warn t = false) ->
  validate_onchain warn pol tx = VOk nbv ->
  t_version_two tx = true /\ t_base_size tx <= MAX_ONCHAIN_TX_SIZE /\
  Forall beneficial (t_outputs tx) /\
  sum_N (t_values tx) <= U64MAX /\ sum_N (out_values (t_outputs tx)) <= U64MAX /\
  nbv + sum_N (out_values (t_outputs tx)) = sum_N (t_values tx) /\
  t_weight tx <> 0 /\
  (disable_beneficial pol = false -> max_feerate pol < U32MAX ->
     nbv * 1000 + 999 < (max_feerate pol + 1) * t_weight tx) /\
  (any_chan (t_outputs tx) = true ->
     N.of_nat (length (t_flags tx)) = t_n_txin tx /\ Forall (fun b => b = true) (t_flags tx)).
Proof.
  intros Hw H. apply validate_ok_facts in H.
  destruct H as (V & S & M & P & _ & Bin & Bout & Eq & W & R).
  destruct (strict_counted_values warn _ Hw P) as [B C]. rewrite C in *.
  split; [apply V, Hw|]. split; [apply S, Hw|]. split; [exact B|]. split; [exact Bin|].
  split; [exact Bout|]. split; [exact Eq|]. split; [exact W|].
  split; [intros D Mx; apply R; [apply Hw | exact D | exact Mx]|].
  intros A. destruct (M A) as [L G]. split; [exact L | apply G, Hw].
Qed.

Lemma beneficial_funds o c : beneficial o -> funds o c -> chan_valid o c.
Proof.
  unfold beneficial, funds. intros B (P & A & C). rewrite P in B.
  destruct B as [B | (_ & c' & C' & V)]; [congruence|].
  rewrite C in C'. inversion C'; subst c'. exact V.
Qed.

Lemma passable_funds warn o c : passable warn o -> funds o c -> chan_valid_w warn o c.
Proof.
  unfold passable, funds. intros B (P & A & C). rewrite P in B.
  destruct B as [B | (_ & c' & C' & V)]; [congruence|].
  rewrite C in C'. inversion C'; subst c'. exact V.
Qed.

(** a value that saturates in msat is never approved by a control with a finite limit *)
Lemma accepted_exact c now nbv :
  limit c < U64MAX -> snd (insert c now (sat_mul nbv 1000)) = true -> sat_mul nbv 1000 = nbv * 1000.
Proof.
  intros L. unfold sat_mul. destruct (N.le_gt_cases (nbv * 1000) U64MAX) as [H|H]; [lia|].
  replace (N.min (nbv * 1000) U64MAX) with U64MAX by lia. unfold insert. cbn [advance limit].
  replace (sat_add _ U64MAX) with U64MAX by (unfold sat_add; lia).
  destruct (N.ltb_spec (limit c) U64MAX); [discriminate | lia].
Qed.

Lemma check_onchain_cases warn pol c now nc :
  match check_onchain warn pol c now nc with
  | (COk nbv, c1) =>
      exists w, node_weight nc = Some w /\
                validate_onchain warn pol (to_txcase nc w) = VOk nbv /\
                c1 = fst (insert c now (sat_mul nbv 1000)) /\
                (warn T_fee_range = false -> snd (insert c now (sat_mul nbv 1000)) = true)
  | (CUnknown u, c1) =>
      exists w, node_weight nc = Some w /\ validate_onchain warn pol (to_txcase nc w) = VUnknown u /\ c1 = c
  | _ => True
  end.
Proof.
  unfold check_onchain, check_onchain_with.
  destruct (node_weight nc) as [w|]; [|exact I].
  destruct (validate_onchain warn pol (to_txcase nc w)) as [n|t|u|] eqn:V; try exact I.
  - destruct (insert c now (sat_mul n 1000)) as [c' ok] eqn:Ei.
    destruct ok; [|destruct (warn T_fee_range); [|exact I]]; exists w; rewrite Ei; repeat split; auto; discriminate.
  - exists w. repeat split. exact V.
Qed.

Lemma rate_bounds_msat nbv m w :
  m < U32MAX -> w < two32 -> nbv * 1000 + 999 < (m + 1) * w -> nbv * 1000 <= U64MAX.
Proof. unfold U32MAX, two32, U64MAX. intros Hm Hw H. nia. Qed.

Lemma nondecreasing_weaken l : forall a b, b <= a -> nondecreasing a l = true -> nondecreasing b l = true.
Proof.
  destruct l as [|t l]; intros a b Hab H; cbn [nondecreasing] in *; [reflexivity|].
  apply andb_true_iff in H. destruct H as [H1 H2]. apply N.leb_le in H1.
  apply andb_true_iff. split; [apply N.leb_le; lia | exact H2].
Qed.

Lemma node_eta (s : nodevc) : mknode (mem s) (disk s) = s.
Proof. destruct s; reflexivity. Qed.

Section History.
Variables (warn : otag -> bool) (pol : opolicy) (it : itype) (lim0 : N).
Hypothesis Hwarn : warn T_fee_range = false.
Hypothesis Hlim : fst (fst (spec_triple it lim0)) < U64MAX.

Definition tx_vop (now : N) (nc : nodecase) : option vop :=
  match node_weight nc with
  | None => None
  | Some w =>
      match validate_onchain warn pol (to_txcase nc w) with
      | VOk nbv => Some (Approve now (sat_mul nbv 1000))
      | _ => None
      end
  end.

Fixpoint to_vops (ops : list oop) : list vop :=
  match ops with
  | [] => []
  | OTx now nc :: r =>
      match tx_vop now nc with Some v => v :: to_vops r | None => to_vops r end
  | OPersist :: r => Persist :: to_vops r
  | ORestart :: r => Restart :: to_vops r
  end.

Lemma tx_vop_approve now nc v : tx_vop now nc = Some v -> exists amt, v = Approve now amt.
Proof using Type.
  unfold tx_vop. destruct (node_weight nc); [|discriminate].
  destruct (validate_onchain _ _ _); try discriminate. intros [= <-]. eexists. reflexivity.
Qed.

(** the history is a velocity history; the amounts it logs are the true values, because a value
    that does not fit in u64 msat is refused by a control with a finite limit *)
Lemma orun_sim ops : forall s log,
  spec_matches (mem s) it lim0 = true ->
  orun_from warn pol it lim0 s log ops = vrun_from it lim0 s log (to_vops ops).
Proof.
  induction ops as [|o r IH]; intros s log HL; [reflexivity|].
  destruct o as [now nc| |]; cbn [orun_from to_vops ostep] in *.
  - unfold tx_vop, check_onchain, check_onchain_with.
    destruct (node_weight nc) as [w|] eqn:W.
    2:{ rewrite node_eta. apply IH. exact HL. }
    destruct (validate_onchain warn pol (to_txcase nc w)) as [n|t|u|] eqn:V;
      try (rewrite node_eta; apply IH; exact HL).
    cbn [vrun_from vstep].
    pose proof (spec_matches_insert _ _ _ now (sat_mul n 1000) HL) as IL.
    pose proof (accepted_exact (mem s) now n) as AE.
    rewrite (proj1 (spec_matches_facts _ _ _ HL)) in AE. specialize (AE Hlim).
    destruct (insert (mem s) now (sat_mul n 1000)) as [c1 ok]. cbn [fst snd] in *. destruct ok.
    + rewrite (AE eq_refl). apply IH. exact IL.
    + rewrite Hwarn. apply IH. exact IL.
  - cbn [vrun_from vstep]. apply IH. exact HL.
  - cbn [vrun_from vstep]. apply IH. apply spec_matches_update.
Qed.

Lemma to_vops_times ops : forall from,
  nondecreasing from (oop_times ops) = true -> nondecreasing from (op_times (to_vops ops)) = true.
Proof using Type.
  induction ops as [|o r IH]; intros from H; [reflexivity|].
  destruct o as [now nc| |]; cbn [oop_times to_vops op_times] in *; try (apply IH; exact H).
  cbn [nondecreasing] in H. apply andb_true_iff in H. destruct H as [H1 H2].
  destruct (tx_vop now nc) as [v|] eqn:E.
  - apply tx_vop_approve in E. destruct E as [amt ->]. cbn [op_times nondecreasing]. rewrite H1. apply IH, H2.
  - apply IH. apply N.leb_le in H1. exact (nondecreasing_weaken _ _ _ H1 H2).
Qed.

Theorem orun_is_vrun ops :
  orun warn pol it lim0 ops = vrun it lim0 (to_vops ops).
Proof. unfold orun, vrun. apply orun_sim, of_spec_matches. Qed.

End History.

Lemma mrun_app delegate ops1 : forall memo ops2,
  mrun delegate memo (ops1 ++ ops2) =
  let '(m1, a1) := mrun delegate memo ops1 in
  let '(m2, a2) := mrun delegate m1 ops2 in (m2, a1 ++ a2).
Proof.
  induction ops1 as [|o r IH]; intros memo ops2; cbn [app mrun].
  - destruct (mrun delegate memo ops2). reflexivity.
  - destruct (mstep delegate memo o) as [m1 a]. rewrite IH.
    destruct (mrun delegate m1 r) as [m2 a1]. destruct (mrun delegate m2 ops2) as [m3 a2].
    destruct a; reflexivity.
Qed.

Lemma memo_after delegate pre : forall memo,
  fst (mrun delegate memo pre) =
  match rev pre with
  | [] => memo
  | MSet txs :: _ => txs
  | MAsk _ :: _ => []
  end.
Proof.
  induction pre as [|o r IH] using rev_ind; intros memo; [reflexivity|].
  rewrite rev_app_distr. cbn [rev app]. rewrite mrun_app.
  destruct (mrun delegate memo r) as [m1 a1]. cbn [mrun].
  destruct o; cbn [mstep fst]; reflexivity.
Qed.
