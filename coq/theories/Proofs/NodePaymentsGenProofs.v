(** The node-level steps of the payments model (Model/Payments.v) are what the translated source
    computes (Gen/NodePaymentsGen.v, regenerated on every run): [hash_ok] / [validate_payments] for
    NodeState::validate_payments (whole body, with RoutedPayment::updated_incoming_outgoing and the
    other methods it uses; validate_payment_balance is the translation of Gen/PaymentsGen.v),
    [apply_payments] for NodeState::apply_payments, the [PFulfil] step for ::htlc_fulfilled, and
    [prunable] / the [PHeartbeat] step for ::is_forwarded_payment_prunable / ::prune_forwarded_payments.

    The node keeps maps (payment hash -> invoice, payment hash -> RoutedPayment with channel id ->
    amount maps); the model keeps functions, and [abs_node] reads the functions off the maps.  The
    model's totals range over the channels 0 .. nch-1: a source-level state is well formed
    ([wf_node]) when the per-channel maps have one entry per key and keys below [nch].  The two
    summaries the function receives are association lists on both sides ([hget] of the model is
    the look-up with default 0).

    What the model does not have, and the theorem about validate_payments therefore assumes:
      - the CLTV rule (policy-routing-cltv-delta: validate_payment_cltv on the stored bounds of a
        payment record) - [cltv_pass]: the rule passes for every record among the hashes;
      - the enforce_balance register - [enforce_balance = false] (off in every policy in use);
      - policy filters that downgrade the three tags involved;
      - u64 overflow - [hash_fitsb] for every hash (a boolean).
    The hash set is visited in the order [ord hashes] for an arbitrary permutation [ord]: the answer
    does not depend on it. *)
From Coq Require Import String Permutation.
From VLS Require Import Base.Rust Gen.NodePaymentsGen Proofs.RustFacts.
From VLS Require Gen.PaymentsGen Gen.CommitmentPolicyGen Proofs.PaymentsGenProofs.
From VLS Require Import Model.Payments Proofs.PaymentsProofs.

Module CP := CommitmentPolicyGen.

Definition get0 (m : list (N * N)) (k : N) : N :=
  match map_get m k with Some v => v | None => 0 end.

Lemma hget_get0 m h : hget m h = get0 m h.
Proof.
  unfold get0. induction m as [|[k v] r IH]; cbn [hget map_get]; [reflexivity|].
  destruct (k =? h); [reflexivity | exact IH].
Qed.

Definition abs_node (chs : N -> pchan) (ns : NodeState) : pnode :=
  mkPN (fun h => option_map PaymentState_amount_msat (map_get (NodeState_invoices ns) h))
       (fun h => map_contains (NodeState_payments ns) h)
       (fun h c => match map_get (NodeState_payments ns) h with
                   | Some p => (get0 (RoutedPayment_incoming p) c, get0 (RoutedPayment_outgoing p) c)
                   | None => (0, 0)
                   end)
       chs
       (fun h => match map_get (NodeState_payments ns) h with
                 | Some p => is_some_of (RoutedPayment_preimage p)
                 | None => false
                 end).

(** [hash_ok] with the two per-hash values as functions: the model's [hash_ok p nh nc] is this for
    [in_val p nh nc] / [out_val p nh nc] (by definition) *)
Definition hash_ok_sum (nch : nat) (mf mp : N) (s : pnode) (ch : N) (isum osum : N -> N) (h : N) : bool :=
  let '(i, o) :=
    if known s h then upd_totals nch s h ch (isum h) (osum h) else (isum h, osum h) in
  balance_ok mf mp (i * 1000) (o * 1000) (inv s h)
  || (known s h && match inv s h with None => true | Some _ => false end).

Definition wf_map (nch : nat) (m : list (N * N)) : Prop :=
  NoDup (map_keys m) /\ Forall (fun k => k < N.of_nat nch) (map_keys m).

Definition wf_node (nch : nat) (ns : NodeState) : Prop :=
  forall h p, map_get (NodeState_payments ns) h = Some p ->
              wf_map nch (RoutedPayment_incoming p) /\ wf_map nch (RoutedPayment_outgoing p).

Lemma sum_indicator (f : N -> N) k v l :
  NoDup l -> In k l -> f k = 0 ->
  sum_N (map (fun c => if k =? c then v else f c) l) = v + sum_N (map f l).
Proof.
  intros ND Hin Hk. induction l as [|a l IH]; [destruct Hin|].
  inversion ND as [|a' l' Hna ND']; subst. cbn [map sum_N].
  destruct (N.eqb_spec k a) as [<-|E].
  - rewrite Hk, (map_ext_in _ f); [lia|].
    intros c Hc. destruct (N.eqb_spec k c) as [<-|_]; [contradiction | reflexivity].
  - destruct Hin as [->|Hin]; [contradiction|]. rewrite (IH ND' Hin). lia.
Qed.

Lemma total_is_sum nch m :
  wf_map nch m -> sum_N (map (fun c => get0 m c) (chan_ids nch)) = sum_N (map_values m).
Proof.
  induction m as [|[k v] r IH]; intros [ND Hr].
  - cbn [map_values map sum_N]. induction (chan_ids nch) as [|a l IHl]; cbn [map sum_N]; [reflexivity|].
    rewrite IHl. reflexivity.
  - cbn [map_keys map fst] in ND, Hr. inversion ND as [|k' l' Hnk ND']; subst.
    inversion Hr as [|k' l' Hk Hr']; subst.
    change (sum_N (map_values ((k, v) :: r))) with (v + sum_N (map_values r)).
    rewrite <- (IH (conj ND' Hr')).
    rewrite <- (sum_indicator (fun c => get0 r c) k v (chan_ids nch)).
    + apply f_equal, map_ext. intros c. unfold get0. cbn [map_get]. destruct (k =? c); reflexivity.
    + apply chan_ids_nodup.
    + apply chan_ids_in. exact Hk.
    + unfold get0. rewrite (map_get_not_key r k Hnk). reflexivity.
Qed.

Lemma get0_le_sum m c : get0 m c <= sum_N (map_values m).
Proof.
  unfold get0. induction m as [|[k v] r IH]; cbn [map_get map_values map snd sum_N]; [lia|].
  unfold map_values in IH. destruct (k =? c); cbv beta iota; lia.
Qed.

Lemma get0_insert (m : list (N * N)) k v c : get0 (map_insert m k v) c = if c =? k then v else get0 m c.
Proof. unfold get0. rewrite map_get_insert, (N.eqb_sym c k). destruct (k =? c); reflexivity. Qed.

Lemma wf_insert nch m k v : wf_map nch m -> k < N.of_nat nch -> wf_map nch (map_insert m k v).
Proof.
  intros [ND Hr] Hk. split; [apply keys_insert_nodup, ND|].
  rewrite keys_insert. constructor; [exact Hk|]. rewrite Forall_forall in *.
  intros a Ha. apply filter_In in Ha. apply Hr, Ha.
Qed.

Definition row (p : RoutedPayment) (c : N) : N * N :=
  (get0 (RoutedPayment_incoming p) c, get0 (RoutedPayment_outgoing p) c).

Definition apply_rec (p : RoutedPayment) (ch i o : N) (ic oc : option N) : RoutedPayment :=
  mk_RoutedPayment (map_insert (RoutedPayment_incoming p) ch i) (map_insert (RoutedPayment_outgoing p) ch o)
    (match ic with
     | Some x => Some (match RoutedPayment_incoming_cltv_min p with Some e => N.min e x | None => x end)
     | None => RoutedPayment_incoming_cltv_min p
     end)
    (match oc with
     | Some x => Some (match RoutedPayment_outgoing_cltv_max p with Some e => N.max e x | None => x end)
     | None => RoutedPayment_outgoing_cltv_max p
     end)
    (RoutedPayment_preimage p).

(** RoutedPayment::apply never panics; it replaces the record's entry for the channel in both maps -
    the ledger update [upd (led h) ch (i, o)] of the model's [apply_one] - and only moves the two
    CLTV bounds, which the model does not have *)
Lemma gen_apply_rec prof p ch i o ic oc :
  gen_RoutedPayment_apply prof p ch i o ic oc = Val (apply_rec p ch i o ic oc).
Proof. destruct ic, oc; reflexivity. Qed.

Lemma apply_rec_row p ch i o ic oc c : row (apply_rec p ch i o ic oc) c = upd (row p) ch (i, o) c.
Proof. unfold row, upd. cbn [apply_rec RoutedPayment_incoming RoutedPayment_outgoing]. rewrite !get0_insert. destruct (c =? ch); reflexivity. Qed.

Lemma gen_updated_io prof p ch i o :
  sum_N (map_values (RoutedPayment_incoming p)) + i <= U64MAX ->
  sum_N (map_values (RoutedPayment_outgoing p)) + o <= U64MAX ->
  gen_RoutedPayment_updated_incoming_outgoing prof p ch i o =
  Val (sum_N (map_values (RoutedPayment_incoming p)) + i - get0 (RoutedPayment_incoming p) ch,
       sum_N (map_values (RoutedPayment_outgoing p)) + o - get0 (RoutedPayment_outgoing p) ch).
Proof.
  intros Hi Ho. unfold gen_RoutedPayment_updated_incoming_outgoing.
  pose proof (get0_le_sum (RoutedPayment_incoming p) ch). pose proof (get0_le_sum (RoutedPayment_outgoing p) ch).
  fold (get0 (RoutedPayment_incoming p) ch). fold (get0 (RoutedPayment_outgoing p) ch).
  rewrite !sum_p_ok by lia. cbn [bindT]. rewrite !add_p_ok by lia. cbn [bindT].
  rewrite !sub_p_ok by lia. reflexivity.
Qed.

Lemma gen_incoming_outgoing prof p :
  sum_N (map_values (RoutedPayment_incoming p)) <= U64MAX ->
  sum_N (map_values (RoutedPayment_outgoing p)) <= U64MAX ->
  gen_RoutedPayment_incoming_outgoing prof p =
  Val (sum_N (map_values (RoutedPayment_incoming p)), sum_N (map_values (RoutedPayment_outgoing p))).
Proof. intros Hi Ho. unfold gen_RoutedPayment_incoming_outgoing. rewrite !sum_p_ok by assumption. reflexivity. Qed.

Lemma gen_is_no_incoming prof p :
  sum_N (map_values (RoutedPayment_incoming p)) <= U64MAX ->
  gen_RoutedPayment_is_no_incoming prof p = Val (sum_N (map_values (RoutedPayment_incoming p)) =? 0).
Proof. intros H. unfold gen_RoutedPayment_is_no_incoming. rewrite sum_p_ok by exact H. reflexivity. Qed.

Lemma gen_is_no_outgoing prof p :
  sum_N (map_values (RoutedPayment_outgoing p)) <= U64MAX ->
  gen_RoutedPayment_is_no_outgoing prof p = Val (sum_N (map_values (RoutedPayment_outgoing p)) =? 0).
Proof. intros H. unfold gen_RoutedPayment_is_no_outgoing. rewrite sum_p_ok by exact H. reflexivity. Qed.

Definition cltv_bounds (p : RoutedPayment) : option (N * N) :=
  match RoutedPayment_incoming_cltv_min p, RoutedPayment_outgoing_cltv_max p with
  | Some i, Some c => Some (i, c)
  | _, _ => None
  end.

Lemma gen_get_cltv_bounds prof p : gen_RoutedPayment_get_cltv_bounds prof p = Val (cltv_bounds p).
Proof. reflexivity. Qed.

(** the CLTV rule of the source, which the model does not have: it passes for the record *)
Definition cltv_pass prof swarn gp (o : option RoutedPayment) : Prop :=
  match o with
  | Some p =>
      match RoutedPayment_incoming_cltv_min p, RoutedPayment_outgoing_cltv_max p with
      | Some i, Some c => gen_validate_payment_cltv prof swarn gp i c = Val (OkR tt)
      | _, _ => True
      end
  | None => True
  end.

Lemma cltv_pass_bounds prof swarn gp p i c :
  cltv_pass prof swarn gp (Some p) -> cltv_bounds p = Some (i, c) ->
  gen_validate_payment_cltv prof swarn gp i c = Val (OkR tt).
Proof.
  unfold cltv_pass, cltv_bounds.
  destruct (RoutedPayment_incoming_cltv_min p), (RoutedPayment_outgoing_cltv_max p); try discriminate.
  intros H E. injection E as <- <-. exact H.
Qed.

(** nothing leaves u64 for this hash *)
Definition hash_fitsb (nch : nat) (mf : N) (s : pnode) (ch : N) (isum osum : N -> N) (h : N) : bool :=
  (in_total nch s h + isum h <=? U64MAX) && (out_total nch s h + osum h <=? U64MAX) &&
  let '(i, o) := if known s h then upd_totals nch s h ch (isum h) (osum h) else (isum h, osum h) in
  (o * 1000 * 100 <=? U64MAX) &&
  match inv s h with
  | Some a => i * 1000 + (a + mf) <=? U64MAX
  | None => i * 1000 <=? U64MAX
  end.

Lemma hash_fitsb_spec nch mf s ch isum osum h :
  hash_fitsb nch mf s ch isum osum h = true ->
  in_total nch s h + isum h <= U64MAX /\ out_total nch s h + osum h <= U64MAX /\
  let io := if known s h then upd_totals nch s h ch (isum h) (osum h) else (isum h, osum h) in
  PaymentsGenProofs.amounts_fit mf (fst io * 1000) (snd io * 1000) (inv s h).
Proof.
  unfold hash_fitsb, PaymentsGenProofs.amounts_fit. cbv zeta.
  destruct (if known s h then _ else _) as [i o]. cbn [fst snd]. intros H.
  apply andb_prop in H. destruct H as [H12 H34].
  apply andb_prop in H12. destruct H12 as [H1 H2]. apply andb_prop in H34. destruct H34 as [H3 H4].
  apply N.leb_le in H1, H2, H3. repeat split; try assumption. destruct (inv s h); apply N.leb_le, H4.
Qed.

Lemma totals_some nch chs ns h p :
  wf_node nch ns -> map_get (NodeState_payments ns) h = Some p ->
  in_total nch (abs_node chs ns) h = sum_N (map_values (RoutedPayment_incoming p)) /\
  out_total nch (abs_node chs ns) h = sum_N (map_values (RoutedPayment_outgoing p)).
Proof.
  intros Hwf Hp. destruct (Hwf h p Hp) as [Wi Wo].
  unfold in_total, out_total. cbn [abs_node led]. rewrite Hp. cbn [fst snd].
  rewrite <- (total_is_sum nch _ Wi), <- (total_is_sum nch _ Wo). split; reflexivity.
Qed.

Theorem gen_validate_payments_is_model (nch : nat) prof swarn gp (ord : list N -> list N) chs ns ch im om bd vid :
  (forall l, Permutation (ord l) l) ->
  wf_node nch ns ->
  swarn "policy-routing-balanced"%string = false ->
  swarn "policy-htlc-fee-range"%string = false ->
  swarn "policy-commitment-htlc-routing-balance"%string = false ->
  CP.SimplePolicy_enforce_balance gp = false ->
  let s := abs_node chs ns in
  let mf := CP.SimplePolicy_max_routing_fee_msat gp in
  let mp := CP.SimplePolicy_max_feerate_percentage gp in
  let hashes := set_extend (set_extend [] (map_keys im)) (map_keys om) in
  (forall h, In h hashes -> cltv_pass prof swarn gp (map_get (NodeState_payments ns) h)) ->
  forallb (hash_fitsb nch mf s ch (hget im) (hget om)) hashes = true ->
  gen_NodeState_validate_payments prof swarn gp ord ns ch im om bd vid =
  if forallb (hash_ok_sum nch mf mp s ch (hget im) (hget om)) hashes
  then Val (OkR tt)
  else Val (ErrR "policy-commitment-htlc-routing-balance"%string).
Proof.
  intros Hord Hwf Hw1 Hw2 Hw3 Henf s mf mp hashes Hcltv Hfits.
  assert (Hin : forall h, In h (ord hashes) <-> In h hashes)
    by (intros h; split; apply Permutation_in; [|symmetry]; apply Hord).
  unfold gen_NodeState_validate_payments. cbv beta zeta. fold hashes.
  rewrite (fold_collect _ (hash_ok_sum nch mf mp s ch (hget im) (hget om)) (ord hashes)).
  - cbn [bindR app]. rewrite filter_empty_forallb, (forallb_same_elems _ _ _ Hin).
    unfold gen_enforce_balance. rewrite Henf. cbn [bindT].
    destruct (forallb (hash_ok_sum nch mf mp s ch (hget im) (hget om)) hashes); cbn [negb];
      [|unfold policy_err; rewrite Hw3]; reflexivity.
  - intros acc h Hh. apply Hin in Hh. specialize (Hcltv h Hh).
    rewrite forallb_forall in Hfits. destruct (hash_fitsb_spec _ _ _ _ _ _ _ (Hfits h Hh)) as (Fi & Fo & Ffit).
    clear Hfits Hord Hin Hh Hw3. unfold hash_ok_sum. rewrite !hget_get0 in *.
    fold (get0 im h). fold (get0 om h).
    set (io := if known s h then upd_totals nch s h ch (get0 im h) (get0 om h) else (get0 im h, get0 om h)) in *.
    (* the amounts the balance rule is asked about are those of the model *)
    match goal with |- bindR ?X _ = _ => assert (Ht5 : X = Val (OkR io)) end.
    { subst io s. cbn [abs_node known]. unfold map_contains.
      destruct (map_get (NodeState_payments ns) h) as [p|] eqn:Hp; cbn [is_some_of]; [|reflexivity].
      destruct (totals_some nch chs ns h p Hwf Hp) as [Ti To]. rewrite Ti in Fi. rewrite To in Fo.
      unfold upd_totals. rewrite Ti, To. cbn [abs_node led]. rewrite Hp. cbn [fst snd].
      rewrite gen_get_cltv_bounds. cbn [bindT].
      destruct (cltv_bounds p) as [[i c]|] eqn:Eb; [rewrite (cltv_pass_bounds _ _ _ _ _ _ Hcltv Eb)|]; cbn [bindR];
        rewrite (gen_updated_io prof p ch _ _ Fi Fo); reflexivity. }
    rewrite Ht5. cbn [bindR]. clear Ht5 Fi Fo Hcltv. clearbody io. destruct io as [i o]. cbn [fst snd] in Ffit.
    destruct (PaymentsGenProofs.amounts_fit_le _ _ _ _ Ffit) as [Li Lo].
    rewrite (mul_p_ok prof i 1000 Li), (mul_p_ok prof o 1000 Lo). cbn [bindT].
    rewrite (PaymentsGenProofs.gen_balance_warn prof swarn _ _ _ _ _ Hw1 Hw2 Ffit). cbn [bindT].
    rewrite !bindR_ret. subst s. cbn [abs_node known inv]. unfold map_contains.
    unfold mp. destruct (balance_ok mf _ (i * 1000) (o * 1000) _); cbn [negb orb bindR]; [reflexivity|].
    destruct (map_get (NodeState_payments ns) h), (map_get (NodeState_invoices ns) h); reflexivity.
Qed.

Definition set_payments (ns : NodeState) (m : list (N * RoutedPayment)) : NodeState :=
  mk_NodeState (NodeState_invoices ns) (NodeState_issued_invoices ns) m (NodeState_excess_amount ns)
    (NodeState_log_prefix ns) (NodeState_velocity_control ns) (NodeState_fee_velocity_control ns)
    (NodeState_last_summary ns) (NodeState_dbid_high_water_mark ns) (NodeState_allowlist ns).

(** The payments map is used through its look-up only: what [abs_node] says about a hash is a function
    of the look-up of that hash, by definition of [abs_node]. *)
Notation look ns := (map_get (NodeState_payments ns)).

Definition row_of (o : option RoutedPayment) (c : N) : N * N :=
  match o with Some p => row p c | None => (0, 0) end.
Definition pre_of (o : option RoutedPayment) : bool :=
  match o with Some p => is_some_of (RoutedPayment_preimage p) | None => false end.

Lemma abs_node_look chs ns x o :
  look ns x = o ->
  known (abs_node chs ns) x = is_some_of o /\
  (forall c, led (abs_node chs ns) x c = row_of o c) /\
  pre (abs_node chs ns) x = pre_of o.
Proof. intros <-. repeat split. Qed.

Lemma abs_node_inv chs ns ns' x :
  NodeState_invoices ns' = NodeState_invoices ns -> inv (abs_node chs ns') x = inv (abs_node chs ns) x.
Proof. cbn [abs_node inv]. intros ->. reflexivity. Qed.

Lemma abs_pre_known chs ns x : pre (abs_node chs ns) x = true -> known (abs_node chs ns) x = true.
Proof. destruct (abs_node_look chs ns x _ eq_refl) as (-> & _ & ->). destruct (look ns x); [reflexivity | discriminate]. Qed.

Definition new_payment : RoutedPayment := mk_RoutedPayment [] [] None None None.
Definition or_new (o : option RoutedPayment) : RoutedPayment := match o with Some v => v | None => new_payment end.

Definition ensure (ns : NodeState) (h : N) : NodeState :=
  set_payments ns (map_insert (NodeState_payments ns) h (or_new (look ns h))).

(** the CLTV bounds read off the commitment for a hash *)
Definition cltvs (ci : option CP.CommitmentInfo2) (h : N) : option N * option N :=
  match ci with
  | Some info =>
      let '(inh, outh) :=
        if CP.CommitmentInfo2_is_counterparty_broadcaster info
        then (CP.CommitmentInfo2_offered_htlcs info, CP.CommitmentInfo2_received_htlcs info)
        else (CP.CommitmentInfo2_received_htlcs info, CP.CommitmentInfo2_offered_htlcs info) in
      (min_of (map (fun x => CP.HTLCInfo2_cltv_expiry x) (filter (fun x => CP.HTLCInfo2_payment_hash x =? h) inh)),
       max_of (map (fun x => CP.HTLCInfo2_cltv_expiry x) (filter (fun x => CP.HTLCInfo2_payment_hash x =? h) outh)))
  | None => (None, None)
  end.

Definition booked ch im om ci h (p : RoutedPayment) : RoutedPayment :=
  apply_rec p ch (get0 im h) (get0 om h) (fst (cltvs ci h)) (snd (cltvs ci h)).

Definition book_hash (ch : N) (im om : list (N * N)) (ci : option CP.CommitmentInfo2) (ns : NodeState) (h : N) : NodeState :=
  match look ns h with
  | Some p => set_payments ns (map_insert (NodeState_payments ns) h (booked ch im om ci h p))
  | None => ns
  end.

Lemma booked_fields ch im om ci h o :
  (forall c, row_of (Some (booked ch im om ci h (or_new o))) c = upd (row_of o) ch (get0 im h, get0 om h) c) /\
  pre_of (Some (booked ch im om ci h (or_new o))) = pre_of o.
Proof.
  split; [intros c|destruct o; reflexivity]. cbn [row_of]. unfold booked. rewrite apply_rec_row. unfold upd.
  destruct (c =? ch), o; reflexivity.
Qed.

Lemma fold_pair_fst {S T A} (f : S -> A -> S) (l : list A) : forall (s : S) (t : T),
  fold_left (fun (st : S * T) h => (f (fst st) h, snd st)) l (s, t) = (fold_left f l s, t).
Proof. induction l as [|a r IH]; intros s t; cbn [fold_left fst snd]; [reflexivity | apply IH]. Qed.

Lemma look_ensure ns h x : look (ensure ns h) x = if h =? x then Some (or_new (look ns h)) else look ns x.
Proof. apply map_get_insert. Qed.

Lemma look_book ch im om ci ns h x :
  look (book_hash ch im om ci ns h) x = if h =? x then option_map (booked ch im om ci h) (look ns h) else look ns x.
Proof.
  unfold book_hash. destruct (look ns h) as [p|] eqn:E; [apply map_get_insert|].
  destruct (N.eqb_spec h x) as [<-|_]; [exact E | reflexivity].
Qed.

Lemma look_applied ch im om ci l ns x : NoDup l ->
  look (fold_left (book_hash ch im om ci) l (fold_left ensure l ns)) x =
  if existsb (N.eqb x) l then Some (booked ch im om ci x (or_new (look ns x))) else look ns x.
Proof.
  intros ND.
  rewrite (fold_look (fun s => look s) _ (fun h => option_map (booked ch im om ci h)) (look_book ch im om ci) l _ x ND).
  rewrite (fold_look (fun s => look s) _ (fun h o => Some (or_new o)) look_ensure l ns x ND).
  destruct (existsb (N.eqb x) l); reflexivity.
Qed.

(** NodeState::apply_payments has three loops: over the hash set [ord hashes], a record is created for every hash
    that has none ([ensure]); over the hashes whose issued invoice the update fulfils, the invoice is marked (and a
    dummy preimage set under enforce_balance); over the hash set again, the channel's amounts and CLTV bounds are
    booked with RoutedPayment::apply ([book_hash]).  Without issued invoices among the hashes and with
    enforce_balance off the second does nothing. *)
Theorem gen_apply_payments_look prof swarn gp (ord : list N -> list N) dp ns ch im om bd vid ci :
  (forall l, Permutation (ord l) l) ->
  CP.SimplePolicy_enforce_balance gp = false ->
  let hashes := set_extend (set_extend [] (map_keys im)) (map_keys om) in
  (forall h, In h hashes -> map_get (NodeState_issued_invoices ns) h = None) ->
  exists ns',
    gen_NodeState_apply_payments prof swarn gp ord dp ns ch im om bd vid ci = Val (OkR ns') /\
    NodeState_invoices ns' = NodeState_invoices ns /\
    forall x, look ns' x = if existsb (N.eqb x) hashes then Some (booked ch im om ci x (or_new (look ns x))) else look ns x.
Proof.
  intros Hord Henf hashes Hiss.
  set (l := ord hashes).
  assert (Hl : forall h, In h l <-> In h hashes)
    by (intros h; split; apply Permutation_in; [|symmetry]; apply Hord).
  assert (ND : NoDup l)
    by (eapply Permutation_NoDup; [symmetry; apply Hord | apply set_extend_nodup, set_extend_nodup; constructor]).
  set (ns1 := fold_left ensure l ns).
  exists (fold_left (book_hash ch im om ci) l ns1). split; [|split].
  - unfold gen_NodeState_apply_payments. cbv beta zeta. fold hashes. fold l.
    unfold gen_enforce_balance. rewrite Henf.
    (* the first loop: a record for every hash *)
    match goal with
    | |- bindR (fold_r ?B1 l (ns, [])) _ = _ =>
        destruct (fold_r_pure B1 (fun st h => (ensure (fst st) h, snd st))
                    (fun st => NodeState_issued_invoices (fst st) = NodeState_issued_invoices ns /\ snd st = []) l) with (s := (ns, @nil N)) as [E1 _]
    end.
    { intros [s fii] h [Ps Pf] Hin. cbn [fst snd] in *. subst fii. cbv beta iota zeta.
      unfold gen_RoutedPayment_new. cbv beta zeta.
      assert (Hnone : map_get (NodeState_issued_invoices s) h = None) by (rewrite Ps; apply Hiss, Hl, Hin).
      destruct (map_get (NodeState_payments s) h) as [v|] eqn:Ev; cbn [bindT NodeState_issued_invoices];
        rewrite Hnone; cbn [bindR]; unfold ensure, or_new, set_payments, new_payment; rewrite Ev; (split; [reflexivity | split; [exact Ps | reflexivity]]). }
    { split; reflexivity. }
    rewrite E1. clear E1. rewrite (fold_pair_fst ensure l ns []). fold ns1.
    cbn [bindR fold_r bindT].
    (* the booking loop: every record it asks for exists *)
    match goal with
    | |- bindR (fold_r ?B3 l ns1) _ = _ =>
        destruct (fold_r_pure B3 (book_hash ch im om ci)
                    (fun st => forall h, In h l -> is_some_of (look st h) = true) l) with (s := ns1) as [E3 _]
    end.
    { intros s h Ps Hin. cbv beta iota zeta.
      split; [|intros h' Hh'; rewrite look_book; destruct (h =? h'); [|apply Ps, Hh']; specialize (Ps h Hin); destruct (look s h); [reflexivity | discriminate Ps]].
      specialize (Ps h Hin).
      unfold book_hash, booked. destruct (map_get (NodeState_payments s) h) as [p|]; [|discriminate Ps].
      cbn [expect_some bindT].
      match goal with |- bindR ?X _ = _ => assert (Hc : X = Val (OkR (cltvs ci h))) end.
      { unfold cltvs. destruct ci as [info|]; [|reflexivity].
        destruct (CP.CommitmentInfo2_is_counterparty_broadcaster info); reflexivity. }
      rewrite Hc. cbn [bindR]. destruct (cltvs ci h) as [ic oc]. rewrite gen_apply_rec. reflexivity. }
    { intros h Hh. unfold ns1.
      rewrite (fold_look (fun s => look s) _ (fun h o => Some (or_new o)) look_ensure l ns h ND), (proj2 (existsb_in h l) Hh). reflexivity. }
    rewrite E3. reflexivity.
  - unfold ns1. rewrite !fold_keeps; [reflexivity | reflexivity |].
    intros s h. unfold book_hash. destruct (look s h); reflexivity.
  - intros x. unfold ns1. rewrite (look_applied ch im om ci l ns x ND), (existsb_same x l hashes Hl). reflexivity.
Qed.

(** htlc_fulfilled: the preimage is recorded only in a record that exists

    The model's step [PFulfil h]: [pre x := pre x || ((x =? h) && known h)], nothing else changes.
    The source (translated in state-passing style; [ph] is the hash of the preimage, an opaque
    value of the translation) never panics when the record's sums fit and enforce_balance is off,
    and the abstraction of the state it leaves is exactly that.  The issued-invoice flag and the
    returned boolean are outside the model. *)
Definition fulfilled (preimage : N) (p : RoutedPayment) : RoutedPayment :=
  if is_some_of (RoutedPayment_preimage p) then p
  else mk_RoutedPayment (RoutedPayment_incoming p) (RoutedPayment_outgoing p) (RoutedPayment_incoming_cltv_min p)
         (RoutedPayment_outgoing_cltv_max p) (Some preimage).

Lemma fulfilled_fields preimage o :
  is_some_of (option_map (fulfilled preimage) o) = is_some_of o /\
  (forall c, row_of (option_map (fulfilled preimage) o) c = row_of o c) /\
  pre_of (option_map (fulfilled preimage) o) = pre_of o || is_some_of o.
Proof.
  destruct o as [p|]; [|repeat split]. unfold fulfilled. cbn [option_map pre_of is_some_of].
  destruct (is_some_of (RoutedPayment_preimage p)) eqn:E; cbn [pre_of]; rewrite ?E; repeat split.
Qed.

Theorem gen_fulfil_look prof swarn gp ph ns ch preimage vid :
  CP.SimplePolicy_enforce_balance gp = false ->
  (forall p, look ns ph = Some p ->
             sum_N (map_values (RoutedPayment_incoming p)) <= U64MAX /\
             sum_N (map_values (RoutedPayment_outgoing p)) <= U64MAX) ->
  exists ns' b,
    gen_NodeState_htlc_fulfilled prof swarn gp ph ns ch preimage vid = Val (OkR (ns', b)) /\
    NodeState_invoices ns' = NodeState_invoices ns /\
    forall x, look ns' x = if ph =? x then option_map (fulfilled preimage) (look ns x) else look ns x.
Proof.
  intros Henf Hfit. unfold gen_NodeState_htlc_fulfilled. cbv beta zeta.
  unfold gen_enforce_balance. rewrite Henf.
  (* the issued invoice: only its flag (and the returned boolean) moves *)
  match goal with
  | |- exists _ _, bindR ?F _ = _ /\ _ =>
      assert (Hfirst : exists ns1 b1, F = Val (OkR (ns1, b1)) /\
                         NodeState_invoices ns1 = NodeState_invoices ns /\ NodeState_payments ns1 = NodeState_payments ns)
  end.
  { destruct (map_get (NodeState_issued_invoices ns) ph) as [is|]; cbn [bindR];
      [destruct (negb (PaymentState_is_fulfilled is)); cbn [bindR]|];
      (eexists; eexists; split; [reflexivity | split; reflexivity]). }
  destruct Hfirst as (ns1 & b1 & -> & Hinv & Hpay). cbn [bindR]. rewrite <- Hpay in Hfit |- *. rewrite <- Hinv. clear Hinv Hpay.
  unfold fulfilled.
  destruct (look ns1 ph) as [p|] eqn:Hp; cbn [bindR]; [destruct (is_some_of (RoutedPayment_preimage p)) eqn:Epre; cbn [bindR]|].
  2: { destruct (Hfit p eq_refl) as [Fi Fo]. rewrite (gen_incoming_outgoing prof p Fi Fo). cbn [bindT bindR].
       eexists (set_payments ns1 (map_insert (NodeState_payments ns1) ph _)), true. split; [|split; [reflexivity|]].
       { destruct (map_contains (NodeState_invoices ns1) ph);
           [destruct (0 <? sum_N (map_values (RoutedPayment_incoming p)))|]; reflexivity. }
       intros x. cbn [set_payments NodeState_payments]. rewrite map_get_insert. destruct (N.eqb_spec ph x) as [<-|_]; [rewrite Hp; cbn [option_map]; rewrite Epre|]; reflexivity. }
  all: exists ns1, b1; repeat split; intros x; destruct (N.eqb_spec ph x) as [<-|_]; rewrite ?Hp; cbn [option_map]; rewrite ?Epre; reflexivity.
Qed.

(** is_forwarded_payment_prunable and prune_forwarded_payments: the heartbeat

    The source's decision for one payment record: no approval ([invoices]) and no issued invoice for
    the hash, nothing incoming, nothing outgoing.  The model's [prunable] is the same without the
    issued invoices, which it does not have: the source prunes a record iff the model says
    [prunable] and there is no issued invoice for the hash. *)
Theorem gen_prunable_is_model (nch : nat) prof chs ns h p :
  wf_node nch ns ->
  map_get (NodeState_payments ns) h = Some p ->
  sum_N (map_values (RoutedPayment_incoming p)) <= U64MAX ->
  sum_N (map_values (RoutedPayment_outgoing p)) <= U64MAX ->
  gen_NodeState_is_forwarded_payment_prunable prof h (NodeState_invoices ns) (NodeState_issued_invoices ns) p =
  Val (prunable nch (abs_node chs ns) h && is_none_of (map_get (NodeState_issued_invoices ns) h)).
Proof.
  intros Hwf Hp Hi Ho. destruct (totals_some nch chs ns h p Hwf Hp) as [Ti To].
  unfold gen_NodeState_is_forwarded_payment_prunable, prunable. rewrite Ti, To.
  cbn [abs_node inv].
  rewrite gen_is_no_incoming, gen_is_no_outgoing by assumption.
  destruct (map_get (NodeState_invoices ns) h); cbn [option_map is_none_of andb bindT]; [reflexivity|].
  destruct (map_get (NodeState_issued_invoices ns) h); cbn [is_none_of andb bindT].
  - rewrite !andb_false_r. reflexivity.
  - rewrite !andb_true_r.
    destruct (sum_N (map_values (RoutedPayment_incoming p)) =? 0); cbn [bindT andb]; reflexivity.
Qed.

Lemma prunable_row nch chs ns h c :
  wf_node nch ns -> prunable nch (abs_node chs ns) h = true -> led (abs_node chs ns) h c = (0, 0).
Proof.
  intros Hwf Q. cbn [abs_node led]. destruct (map_get (NodeState_payments ns) h) as [p|] eqn:Hp; [|reflexivity].
  destruct (totals_some nch chs ns h p Hwf Hp) as [Ti To]. unfold prunable in Q. rewrite Ti, To in Q.
  destruct (inv _ h); [discriminate Q|]. apply andb_prop in Q. rewrite !N.eqb_eq in Q.
  pose proof (get0_le_sum (RoutedPayment_incoming p) c). pose proof (get0_le_sum (RoutedPayment_outgoing p) c).
  f_equal; lia.
Qed.

Definition pruned (nch : nat) (chs : N -> pchan) (ns : NodeState) (h : N) : bool :=
  prunable nch (abs_node chs ns) h && is_none_of (map_get (NodeState_issued_invoices ns) h).

Theorem gen_prune_eq (nch : nat) prof chs ns :
  wf_node nch ns ->
  NoDup (map_keys (NodeState_payments ns)) ->
  (forall h p, look ns h = Some p ->
               sum_N (map_values (RoutedPayment_incoming p)) <= U64MAX /\
               sum_N (map_values (RoutedPayment_outgoing p)) <= U64MAX) ->
  gen_NodeState_prune_forwarded_payments prof ns =
  Val (OkR (set_payments ns (filter (fun e => negb (pruned nch chs ns (fst e))) (NodeState_payments ns)),
            existsb (pruned nch chs ns) (map_keys (NodeState_payments ns)))).
Proof.
  intros Hwf ND Hfit. unfold gen_NodeState_prune_forwarded_payments. cbv beta zeta.
  rewrite (retain_st_flag _ (fun k _ => pruned nch chs ns k)).
  - cbn [bindR orb]. rewrite (existsb_keys (pruned nch chs ns) (NodeState_payments ns)). reflexivity.
  - intros s k v Hin. pose proof (in_map_get _ k v ND Hin) as Hk.
    destruct (Hfit k v Hk) as [Fi Fo].
    rewrite (gen_prunable_is_model nch prof chs ns k v Hwf Hk Fi Fo). cbn [bindT].
    fold (pruned nch chs ns k). destruct (pruned nch chs ns k); reflexivity.
Qed.

(** what the pruning leaves of a hash: its record unless dropped, and a dropped record carried nothing *)
Lemma abs_pruned nch chs ns x :
  wf_node nch ns ->
  let a := abs_node chs ns in
  let a' := abs_node chs (set_payments ns (filter (fun e => negb (pruned nch chs ns (fst e))) (NodeState_payments ns))) in
  known a' x = known a x && negb (pruned nch chs ns x) /\
  pre a' x = pre a x && negb (pruned nch chs ns x) /\
  forall c, led a' x c = led a x c.
Proof.
  intros Hwf a a'. set (keep := fun x => negb (pruned nch chs ns x)).
  destruct (abs_node_look chs (set_payments ns (filter (fun e => keep (fst e)) (NodeState_payments ns))) x _
              (filter_key_get (NodeState_payments ns) keep x)) as (K & L & P).
  subst keep a a'. cbv beta in K, L, P. rewrite K, P.
  destruct (pruned nch chs ns x) eqn:D; cbn [negb]; [rewrite !andb_false_r | rewrite !andb_true_r]; repeat split; [|exact L].
  intros c. rewrite L. symmetry. apply (prunable_row nch chs ns x c Hwf). apply andb_prop in D. apply D.
Qed.
