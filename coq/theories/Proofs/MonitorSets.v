(** Ordered sets of outpoints as strictly sorted lists (the tracker's OrderedSet<OutPoint>): two
    sorted lists with the same members are equal ([osorted_ext]), so identities between sets
    ([watch_roundtrip]) reduce to membership. *)
From Coq Require Import Sorted.
From VLS Require Import Model.Monitor.
From VLS Require Base.Eqb Proofs.ListSort.

Lemma op_eqb_eq (a b : outpoint) : op_eqb a b = true <-> a = b.
Proof. exact (Eqb.prod_eqb_ok Eqb.Eqb_N_ok Eqb.Eqb_N_ok a b). Qed.
Lemma op_eqb_refl a : op_eqb a a = true.
Proof. apply op_eqb_eq; reflexivity. Qed.
Lemma op_eqb_neq (a b : outpoint) : op_eqb a b = false <-> a <> b.
Proof. rewrite <- not_true_iff_false, op_eqb_eq. reflexivity. Qed.
Lemma op_eqb_sym a b : op_eqb a b = op_eqb b a.
Proof.
  destruct (op_eqb a b) eqn:E.
  - apply op_eqb_eq in E; subst. symmetry; apply op_eqb_refl.
  - apply op_eqb_neq in E. symmetry. apply op_eqb_neq. congruence.
Qed.
Lemma op_dec (a b : outpoint) : {a = b} + {a <> b}.
Proof. destruct (op_eqb a b) eqn:E; [left; apply op_eqb_eq; exact E | right; apply op_eqb_neq; exact E]. Qed.

Lemma mem_op_In o l : mem_op o l = true <-> In o l.
Proof. apply (Eqb.existsb_eqb_in op_eqb op_eqb_eq). Qed.
Lemma mem_op_nIn o l : mem_op o l = false <-> ~ In o l.
Proof. rewrite <- not_true_iff_false, mem_op_In. reflexivity. Qed.
Lemma mem_N_In x l : mem_N x l = true <-> In x l.
Proof. apply (Eqb.existsb_eqb_in N.eqb N.eqb_eq). Qed.
Lemma mem_N_nIn x l : mem_N x l = false <-> ~ In x l.
Proof. rewrite <- not_true_iff_false, mem_N_In. reflexivity. Qed.

Definition olt (a b : outpoint) : Prop := ocmp a b = Lt.

Lemma ocmp_ok : ListSort.cmp_ok ocmp.
Proof.
  apply (ListSort.cmp_then_ok fst snd N.compare N.compare); [|exact ListSort.N_cmp_ok ..].
  intros [a1 a2] [b1 b2]. cbn [fst snd]. congruence.
Qed.
Lemma ocmp_eq a b : ocmp a b = Eq <-> a = b.
Proof. apply (ListSort.cmp_eq_iff ocmp_ok). Qed.
Lemma olt_trans a b c : olt a b -> olt b c -> olt a c.
Proof. apply (ListSort.cmp_lt_trans ocmp_ok). Qed.
Lemma olt_irrefl a : ~ olt a a.
Proof. unfold olt. rewrite (ListSort.cmp_refl ocmp_ok). discriminate. Qed.

Definition osorted (l : list outpoint) : Prop := StronglySorted olt l.

Lemma oinsert_in x y l : In x (oinsert y l) <-> x = y \/ In x l.
Proof.
  induction l as [|z r IH]; cbn [oinsert].
  - cbn [In]. intuition.
  - destruct (ocmp y z) eqn:E.
    + apply ocmp_eq in E. subst. cbn [In]. intuition.
    + cbn [In]. intuition.
    + cbn [In]. rewrite IH. intuition.
Qed.

Lemma oinsert_sorted x l : osorted l -> osorted (oinsert x l).
Proof.
  unfold osorted. induction l as [|z r IH]; intros H; cbn [oinsert].
  - constructor; [constructor | constructor].
  - inversion H as [|? ? Hr Hz]; subst. destruct (ocmp x z) eqn:E.
    + exact H.
    + constructor; [exact H|]. constructor; [exact E|].
      rewrite Forall_forall in *. intros w Hw. eapply olt_trans; [exact E | apply Hz; exact Hw].
    + constructor; [apply IH; exact Hr|]. rewrite Forall_forall in *. intros w Hw.
      apply oinsert_in in Hw. destruct Hw as [-> | Hw]; [exact (ListSort.cmp_gt_lt ocmp_ok _ _ E) | apply Hz; exact Hw].
Qed.

Lemma oremove_in x y l : In x (oremove y l) <-> In x l /\ x <> y.
Proof.
  unfold oremove. rewrite filter_In. rewrite negb_true_iff, op_eqb_neq. intuition.
Qed.

Lemma filter_sorted (f : outpoint -> bool) l : osorted l -> osorted (filter f l).
Proof.
  unfold osorted. induction l as [|z r IH]; intros H; cbn [filter]; [constructor|].
  inversion H as [|? ? Hr Hz]; subst. destruct (f z).
  - constructor; [apply IH; exact Hr|]. rewrite Forall_forall in *. intros w Hw.
    apply filter_In in Hw. apply Hz. tauto.
  - apply IH; exact Hr.
Qed.
Lemma oremove_sorted x l : osorted l -> osorted (oremove x l).
Proof. apply filter_sorted. Qed.

Lemma ounion_in x xs : forall w, In x (ounion w xs) <-> In x w \/ In x xs.
Proof.
  unfold ounion. induction xs as [|y r IH]; intros w; cbn [fold_left].
  - cbn [In]. intuition.
  - rewrite IH, oinsert_in. cbn [In]. intuition.
Qed.
Lemma ounion_sorted xs : forall w, osorted w -> osorted (ounion w xs).
Proof.
  unfold ounion. induction xs as [|y r IH]; intros w H; cbn [fold_left]; [exact H|].
  apply IH. apply oinsert_sorted. exact H.
Qed.
Lemma odiff_in x xs : forall w, In x (odiff w xs) <-> In x w /\ ~ In x xs.
Proof.
  unfold odiff. induction xs as [|y r IH]; intros w; cbn [fold_left].
  - cbn [In]. intuition.
  - rewrite IH, oremove_in. cbn [In]. intuition.
Qed.
Lemma odiff_sorted xs : forall w, osorted w -> osorted (odiff w xs).
Proof.
  unfold odiff. induction xs as [|y r IH]; intros w H; cbn [fold_left]; [exact H|].
  apply IH. apply oremove_sorted. exact H.
Qed.

Lemma osorted_ext a : forall b, osorted a -> osorted b -> (forall x, In x a <-> In x b) -> a = b.
Proof.
  unfold osorted. induction a as [|x a IH]; intros b Ha Hb H.
  - destruct b as [|y b]; [reflexivity|]. exfalso. apply (H y). left; reflexivity.
  - destruct b as [|y b]; [exfalso; apply (H x); left; reflexivity|].
    inversion Ha as [|? ? Ha' Hxa]; inversion Hb as [|? ? Hb' Hyb]; subst.
    rewrite Forall_forall in Hxa, Hyb.
    assert (x = y) as ->.
    { destruct (proj1 (H x) (or_introl eq_refl)) as [E | Hxb]; [auto|].
      destruct (proj2 (H y) (or_introl eq_refl)) as [E | Hya]; [auto|].
      exfalso. apply (olt_irrefl x). eapply olt_trans; [apply Hxa; exact Hya | apply Hyb; exact Hxb]. }
    f_equal. apply IH; [exact Ha' | exact Hb' |].
    intros z. split; intros Hz.
    + destruct (proj1 (H z) (or_intror Hz)) as [E | Hzb]; [|exact Hzb].
      subst. exfalso. apply (olt_irrefl z). apply Hxa. exact Hz.
    + destruct (proj2 (H z) (or_intror Hz)) as [E | Hza]; [|exact Hza].
      subst. exfalso. apply (olt_irrefl z). apply Hyb. exact Hz.
Qed.

Lemma osorted_nil : osorted [].
Proof. constructor. Qed.

Lemma odiff_nil_l R : odiff [] R = [].
Proof. unfold odiff. induction R as [|x r IH]; cbn [fold_left]; [reflexivity | exact IH]. Qed.

Lemma ounion_absorb W R : osorted W -> incl R W -> ounion W R = W.
Proof.
  intros Hs Hi. apply osorted_ext; [apply ounion_sorted; exact Hs | exact Hs|].
  intros x. rewrite ounion_in. split; [intros [H | H]; [exact H | apply Hi; exact H] | intros H; left; exact H].
Qed.

Lemma watch_roundtrip W A R A' R' :
  osorted W -> (forall o, In o A' <-> In o A) -> (forall o, In o R' <-> In o R) ->
  (forall o, In o A -> ~ In o W) -> (forall o, In o R -> In o W \/ In o A) ->
  odiff (ounion (odiff (ounion W A) R) R') A' = W.
Proof.
  intros Hs HA HR H1 H2. apply osorted_ext; [apply odiff_sorted, ounion_sorted, odiff_sorted, ounion_sorted, Hs | exact Hs|].
  intros x. rewrite odiff_in, ounion_in, odiff_in, ounion_in, HA, HR. split.
  - intros [[[[Hw | Hx] _] | Hr] Hna]; [exact Hw | contradiction | destruct (H2 x Hr); [assumption | contradiction]].
  - intros Hw. split; [|intros Hx; exact (H1 x Hx Hw)].
    destruct (in_dec op_dec x R) as [Hr | Hr]; [right; exact Hr | left; split; [left; exact Hw | exact Hr]].
Qed.
Corollary seen_roundtrip Sn R R' :
  osorted Sn -> (forall o, In o R' <-> In o R) -> (forall o, In o R -> ~ In o Sn) -> odiff (ounion Sn R) R' = Sn.
Proof.
  intros Hs HR H1.
  (* A := R, R := []: [ounion s []] and [odiff s []] are [s] by computation *)
  exact (watch_roundtrip Sn R [] R' [] Hs HR (fun _ => iff_refl _) H1 (fun _ H => match H with end)).
Qed.
