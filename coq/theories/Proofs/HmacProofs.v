(** Proofs about Model/Hmac.v: which modifications of authenticated external state change
    the MACed byte string (and hence, for an injective MAC, the tag), and which do not. *)
From VLS Require Import Base.Eqb Model.Hmac Model.HmacCheck.
From VLS Require Base.Codec.

Lemma app_eq_len {A} (l1 l1' l2 l2' : list A) :
  l1 ++ l2 = l1' ++ l2' -> length l1 = length l1' -> l1 = l1' /\ l2 = l2'.
Proof.
  revert l1'. induction l1 as [|a l1 IH]; intros [|a' l1'] H L; cbn [app length] in *;
    try discriminate.
  - split; [reflexivity | exact H].
  - inversion H; subst. inversion L as [L']. destruct (IH _ H2 L') as [-> ->].
    split; reflexivity.
Qed.

Lemma bytes_beq_eq (a b : bytes) : beq a b = true <-> a = b.
Proof. apply (list_eqb_ok _ Eqb_N_ok). Qed.

Lemma bytes_beq_refl (a : bytes) : beq a a = true.
Proof. apply bytes_beq_eq. reflexivity. Qed.

Lemma be_bytes_enc n : forall v, be_bytes n v = Codec.be_enc n v.
Proof. induction n as [|n IH]; intros v; [reflexivity|]. cbn [be_bytes]. rewrite IH. reflexivity. Qed.

Lemma be_bytes_length n v : length (be_bytes n v) = n.
Proof. rewrite be_bytes_enc. apply Codec.be_enc_length. Qed.

Lemma be_bytes_inj n v v' :
  be_bytes n v = be_bytes n v' -> v mod 256 ^ N.of_nat n = v' mod 256 ^ N.of_nat n.
Proof.
  rewrite !be_bytes_enc, <- !Codec.le_val_enc_mod. intros H.
  rewrite <- (rev_involutive (Codec.le_enc n v)), <- (rev_involutive (Codec.le_enc n v')).
  exact (f_equal (fun l => Codec.le_val (rev l)) H).
Qed.

Lemma be64_length v : length (be64 v) = 8%nat.
Proof. apply be_bytes_length. Qed.

Lemma be64_inj v v' : v < two64 -> v' < two64 -> be64 v = be64 v' -> v = v'.
Proof.
  intros Hv Hv' H. apply be_bytes_inj in H.
  replace (256 ^ N.of_nat 8) with two64 in H by (vm_compute; reflexivity).
  rewrite !N.mod_small in H by assumption. exact H.
Qed.

(** one record followed by anything: the framing is recovered from the lengths *)
Lemma ser_value_inj_len k v x k' v' x' R R' :
  v < two64 -> v' < two64 -> length k = length k' ->
  (length x = length x' \/ (R = [] /\ R' = [])) ->
  ser_value k v x ++ R = ser_value k' v' x' ++ R' ->
  k = k' /\ v = v' /\ x = x' /\ R = R'.
Proof.
  unfold ser_value. intros Hv Hv' Lk Hx H.
  rewrite <- !app_assoc in H.
  apply app_eq_len in H; [|exact Lk]. destruct H as [-> H].
  apply app_eq_len in H; [|rewrite !be64_length; reflexivity].
  destruct H as [Hb H]. apply be64_inj in Hb; trivial. subst v'.
  destruct Hx as [Lx | [-> ->]].
  - apply app_eq_len in H; [|exact Lx]. destruct H as [-> ->]. repeat split; reflexivity.
  - rewrite !app_nil_r in H. subst. repeat split; reflexivity.
Qed.

Lemma rec_diff_cons_none r t r' t' :
  rec_diff (r :: t) (r' :: t') = None ->
  length (rkey r) = length (rkey r') /\
  ((t = [] /\ t' = []) \/ (length (rval r) = length (rval r') /\ rec_diff t t' = None)).
Proof.
  cbn [rec_diff].
  destruct (Nat.eqb_spec (length (rkey r)) (length (rkey r'))) as [Lk|]; cbn [negb];
    [|discriminate].
  intros D. split; [exact Lk|].
  destruct t as [|r2 t2], t' as [|r2' t2']; [left; split; reflexivity| | |];
    (destruct (Nat.eqb_spec (length (rval r)) (length (rval r'))) as [Lx|]; cbn [negb] in D;
     [right; split; [exact Lx | exact D] | discriminate]).
Qed.

Lemma record_eta (r r' : record) :
  rkey r = rkey r' -> rver r = rver r' -> rval r = rval r' -> r = r'.
Proof.
  destruct r as [[? ?] ?], r' as [[? ?] ?]. unfold rkey, rver, rval. cbn [fst snd].
  intros -> -> ->. reflexivity.
Qed.

Lemma ser_records_inj rs : forall rs',
  wf_records rs -> wf_records rs' -> rec_diff rs rs' = None ->
  ser_records rs = ser_records rs' -> rs = rs'.
Proof.
  induction rs as [|r t IH]; intros [|r' t'] W W' D H; try (cbn [rec_diff] in D; discriminate).
  - reflexivity.
  - destruct (rec_diff_cons_none _ _ _ _ D) as [Lk Ht].
    inversion W as [|? ? Wr Wt]; inversion W' as [|? ? Wr' Wt']; subst.
    cbn [ser_records] in H. unfold ser_record in H.
    assert (Hx : length (rval r) = length (rval r') \/
                 (ser_records t = [] /\ ser_records t' = [])).
    { destruct Ht as [[-> ->] | [Lx _]]; [right; split; reflexivity | left; exact Lx]. }
    apply ser_value_inj_len in H; try assumption.
    destruct H as (Hk & Hv & Hxx & HR).
    assert (r = r') by (apply record_eta; assumption). subst r'. f_equal.
    destruct Ht as [[-> ->] | [_ Dt]]; [reflexivity | apply IH; assumption].
Qed.

(** the value at the end is the same: key and version are determined without a condition on
    the key lengths *)
Lemma ser_value_inj_val k v k' v' x :
  v < two64 -> v' < two64 -> ser_value k v x = ser_value k' v' x -> k = k' /\ v = v'.
Proof.
  unfold ser_value. intros Hv Hv' H. rewrite !app_assoc in H. apply app_inv_tail in H.
  apply app_eq_len in H.
  - destruct H as [-> H]. apply be64_inj in H; auto.
  - apply (f_equal (@length N)) in H. rewrite !app_length, !be64_length in H. lia.
Qed.

Lemma ser_records_nil rs : ser_records rs = [] -> rs = [].
Proof.
  destruct rs as [|r t]; [reflexivity|]. cbn [ser_records]. unfold ser_record, ser_value.
  intros H. apply (f_equal (@length N)) in H. rewrite !app_length, be64_length in H.
  cbn [length] in H. lia.
Qed.

Lemma ser_shared_inj s n rs n' rs' :
  length n = length n' -> ser_shared s n rs = ser_shared s n' rs' -> n = n' /\ ser_records rs = ser_records rs'.
Proof. unfold ser_shared. intros L H. apply app_inv_head in H. apply app_eq_len in H; assumption. Qed.

Lemma ser_input_inj s a b :
  wf_input a -> wf_input b -> in_diff a b = None ->
  ser_input s a = ser_input s b -> a = b.
Proof.
  unfold in_diff, ser_input, wf_input. destruct a as [n rs], b as [n' rs'].
  cbn [fst snd]. intros W W' D H.
  destruct (Nat.eqb_spec (length n) (length n')) as [Ln|]; cbn [negb] in D; [|discriminate].
  apply ser_shared_inj in H; [|exact Ln]. destruct H as [-> H].
  f_equal. apply ser_records_inj; assumption.
Qed.

Lemma rec_diff_not_nonce rs : forall rs', rec_diff rs rs' <> Some NonceKey.
Proof.
  induction rs as [|r t IH]; intros [|r' t']; cbn [rec_diff]; try discriminate.
  destruct (negb (length (rkey r) =? length (rkey r'))%nat); [discriminate|].
  destruct t, t'; try discriminate;
    (destruct (negb (length (rval r) =? length (rval r'))%nat); [discriminate|apply IH]).
Qed.

Lemma rec_diff_same_shape rs : forall rs', map shape rs = map shape rs' -> rec_diff rs rs' = None.
Proof.
  induction rs as [|r t IH]; intros [|r' t'] H; cbn [map] in H; try discriminate.
  - reflexivity.
  - inversion H as [[Lk Lx Ht]]. cbn [rec_diff]. rewrite Lk, Nat.eqb_refl. cbn [negb].
    destruct t as [|r2 t2], t' as [|r2' t2']; cbn [map] in Ht; try discriminate.
    + reflexivity.
    + rewrite Lx, Nat.eqb_refl. cbn [negb]. apply IH. exact Ht.
Qed.

Lemma in_diff_same_shape n rs n' rs' :
  length n = length n' -> map shape rs = map shape rs' -> in_diff (n, rs) (n', rs') = None.
Proof.
  intros Ln Hs. unfold in_diff. cbn [fst snd]. rewrite Ln, Nat.eqb_refl. cbn [negb].
  apply rec_diff_same_shape. exact Hs.
Qed.

Lemma flip_bit_neq bit b : flip_bit bit b <> b.
Proof.
  unfold flip_bit. intros H.
  assert (E : N.lxor b (N.lxor b (2 ^ bit)) = 0) by (rewrite H; apply N.lxor_nilpotent).
  rewrite <- N.lxor_assoc, N.lxor_nilpotent, N.lxor_0_l in E.
  revert E. apply N.pow_nonzero. lia.
Qed.

Lemma flip_at_length i bit : forall l, length (flip_at i bit l) = length l.
Proof.
  induction i as [|i IH]; intros [|b t]; cbn [flip_at length]; try reflexivity.
  rewrite IH. reflexivity.
Qed.

Lemma flip_at_neq i bit : forall l, (i < length l)%nat -> flip_at i bit l <> l.
Proof.
  induction i as [|i IH]; intros [|b t] L; cbn [flip_at length] in *; try lia.
  - intros H. inversion H as [H']. revert H'. apply flip_bit_neq.
  - intros H. inversion H as [H']. revert H'. apply IH. lia.
Qed.

Lemma split_tag_app y t : length t = 32%nat -> split_tag (y ++ t) = Some (y, t).
Proof.
  intros L. unfold split_tag. rewrite app_length, L.
  destruct (Nat.ltb_spec (length y + 32) 32); [lia|].
  replace (length y + 32 - 32)%nat with (length y) by lia.
  rewrite firstn_app, Nat.sub_diag, firstn_all, skipn_app, Nat.sub_diag, skipn_all.
  cbn [firstn skipn app]. rewrite app_nil_r. reflexivity.
Qed.

Lemma split_tag_spec st y t : split_tag st = Some (y, t) -> st = y ++ t /\ length t = 32%nat.
Proof.
  unfold split_tag. destruct (Nat.ltb_spec (length st) 32); [discriminate|].
  intros E. inversion E; subst. split.
  - symmetry. apply firstn_skipn.
  - rewrite skipn_length. lia.
Qed.

Section Tags.
  Variable mac : bytes -> bytes -> bytes.

  Lemma get_app s k v y t :
    length t = 32%nat ->
    process_value_from_get mac s k v (y ++ t) = if beq t (value_tag mac s k v y) then Some y else None.
  Proof. intros L. unfold process_value_from_get. rewrite split_tag_app by exact L. reflexivity. Qed.
  Lemma get_app_inv s k v y t y' :
    length t = 32%nat -> process_value_from_get mac s k v (y ++ t) = Some y' -> y' = y /\ t = value_tag mac s k v y.
  Proof.
    intros L H. rewrite get_app in H by exact L. destruct (beq _ _) eqn:B; [|discriminate H].
    inversion H. subst. apply bytes_beq_eq in B. auto.
  Qed.

  Lemma check_hmac_iff s n rs t : check_hmac mac s n rs t = true <-> t = shared_tag mac s n rs.
  Proof. apply bytes_beq_eq. Qed.

  Lemma secret_of_helper s ns : shared_secret (fold_left new_nonce ns (helper_new s)) = s.
  Proof.
    change s with (shared_secret (helper_new s)) at 2. generalize (helper_new s).
    induction ns as [|n t IH]; intros h; cbn [fold_left]; [reflexivity|].
    rewrite IH. reflexivity.
  Qed.

  (** the driver's use of [hquery] is the whole of the model's answer *)
  Lemma hquery_get_spec s k v st :
    process_value_from_get mac s k v st =
    match hquery (CGet s k v st) with
    | [key; m; t; y] => if beq t (mac key m) then Some y else None
    | _ => None
    end.
  Proof.
    unfold process_value_from_get, hquery, value_tag.
    destruct (split_tag st) as [[y t]|]; reflexivity.
  Qed.

  Lemma hquery_check_spec s ns rs recv :
    helper_check mac (fold_left new_nonce ns (helper_new s)) rs recv =
    match hquery (CCheck s ns rs recv) with
    | [key; m; r] => beq r (mac key m)
    | _ => false
    end.
  Proof.
    unfold helper_check, check_hmac, hquery, shared_tag, effective_nonce.
    rewrite secret_of_helper. reflexivity.
  Qed.

  Lemma hquery_value_spec s k v x :
    match hquery (CValue s k v x) with
    | [key; m; y] => prepare_value_for_put mac s k v x = y ++ mac key m
    | _ => False
    end.
  Proof. reflexivity. Qed.

  Lemma hquery_shared_spec s n rs :
    match hquery (CShared s n rs) with
    | [key; m] => shared_tag mac s n rs = mac key m
    | _ => False
    end.
  Proof. reflexivity. Qed.

  Lemma hquery_init_spec s n rs t :
    init_state mac s n rs t =
    match hquery (CInit s n rs t) with
    | [key; m; r] => if beq r (mac key m) then Some rs else None
    | _ => None
    end.
  Proof. reflexivity. Qed.

  Lemma equal_ser_equal_tag s a b : ser_input s a = ser_input s b -> input_tag mac s a = input_tag mac s b.
  Proof. unfold input_tag, shared_tag, ser_input. intros ->. reflexivity. Qed.

  Hypothesis mac_inj : forall k m m', mac k m = mac k m' -> m = m'.

  Lemma shared_tag_inj s n rs n' rs' :
    length n = length n' -> shared_tag mac s n rs = shared_tag mac s n' rs' ->
    n = n' /\ ser_records rs = ser_records rs'.
  Proof. intros L H. apply mac_inj in H. apply (ser_shared_inj s); assumption. Qed.
End Tags.

Lemma wire_version_lt v : wire_version v < two64.
Proof.
  unfold wire_version, two64.
  pose proof (Z.mod_pos_bound v 18446744073709551616 ltac:(lia)) as B. lia.
Qed.

Lemma wire_version_inj v v' : is_i64 v -> is_i64 v' -> wire_version v = wire_version v' -> v = v'.
Proof.
  unfold wire_version, is_i64. intros B B' H.
  apply Z2N.inj in H; try (apply Z.mod_pos_bound; lia).
  Z.to_euclidean_division_equations. lia.
Qed.

Lemma nonces_fresh_from_spec ns : forall used,
  nonces_fresh_from used ns = true ->
  Forall (fun n => length n = 32%nat) ns /\ NoDup ns /\ (forall n, In n ns -> ~ In n used).
Proof.
  induction ns as [|n t IH]; intros used H.
  - repeat split; [constructor | constructor | intros n []].
  - cbn [nonces_fresh_from] in H. apply andb_true_iff in H. destruct H as [H Ht].
    apply andb_true_iff in H. destruct H as [Hl Hu].
    apply Nat.eqb_eq in Hl. apply negb_true_iff in Hu.
    destruct (IH _ Ht) as (F & D & U).
    assert (Hn : ~ In n used).
    { intros Hin. apply (existsb_eqb_in beq bytes_beq_eq) in Hin. congruence. }
    repeat split.
    + constructor; assumption.
    + constructor; [|exact D]. intros Hin. apply (U n Hin). left. reflexivity.
    + intros m [<- | Hin]; [exact Hn|]. intros Iu. apply (U m Hin). right. exact Iu.
Qed.

Lemma nonces_fresh_distinct ns i j ni nj :
  nonces_fresh ns = true -> nth_error ns i = Some ni -> nth_error ns j = Some nj -> i <> j ->
  length ni = 32%nat /\ length nj = 32%nat /\ ni <> nj.
Proof.
  intros H Hi Hj Nij. destruct (nonces_fresh_from_spec _ _ H) as (F & D & _).
  rewrite Forall_forall in F.
  repeat split.
  - apply F. eapply nth_error_In; eassumption.
  - apply F. eapply nth_error_In; eassumption.
  - intros E. subst nj. apply Nij.
    apply (proj1 (NoDup_nth_error ns) D).
    + apply nth_error_Some. rewrite Hi. discriminate.
    + rewrite Hi, Hj. reflexivity.
Qed.

(** an injective MAC exists (the hypotheses of the section are satisfiable) *)
Definition toy_mac (k m : bytes) : bytes := m.
Lemma toy_mac_inj : forall k m m', toy_mac k m = toy_mac k m' -> m = m'.
Proof. intros k m m' H. exact H. Qed.
