(** Invariants that tie the monitor's core to the history it has seen (the outpoints spent
    so far [S] and the transaction ids seen so far [T]), and what a consistent transaction
    implies for the changes it produces: every change meets [cpre] on the core it is applied
    to, and the invariant carries over. *)
From VLS Require Import Model.Monitor Proofs.MonitorSets Proofs.MonitorDecode Proofs.MonitorUndo Proofs.MonitorSim.

(** [aflag_set] read at the key that was set; the proofs use [core_fwd_flags] *)
Lemma hflag_set_same cl v b cl' : set_htlc cl v b = Ok cl' -> hflag cl' v = Some b /\ hflag cl v <> None.
Proof.
  unfold set_htlc. destruct (set_first _ _ (c_htlcs cl)) as [h|] eqn:E; [|discriminate]. intros H. inversion H; subst.
  destruct (aflag_set N.eqb N.eqb_eq _ _ _ _ E) as [G1 G2]. split; [|exact G1].
  pose proof (G2 v) as G. rewrite N.eqb_refl in G. exact G.
Qed.
Lemma sflag_set_same cl o b cl' : set_second cl o b = Ok cl' -> sflag cl' o = Some b /\ sflag cl o <> None.
Proof.
  unfold set_second. destruct (set_first _ _ (c_second cl)) as [h|] eqn:E; [|discriminate]. intros H. inversion H; subst.
  destruct (aflag_set op_eqb op_eqb_eq _ _ _ _ E) as [G1 G2]. split; [|exact G1].
  pose proof (G2 o) as G. rewrite op_eqb_refl in G. exact G.
Qed.

(** outpoints of the tracked closing whose spend the monitor has recorded *)
Definition flagged (cl : closing) (o : outpoint) : Prop :=
  (fst o = c_txid cl /\ (c_our cl = Some (snd o, true) \/ hflag cl (snd o) = Some true)) \/ sflag cl o = Some true.

Lemma flagged_fwd k c k' cl cl' o :
  core_fwd k c = Ok k' -> needs_closing c = true -> snd k = Some cl -> snd k' = Some cl' ->
  flagged cl' o -> flagged cl o \/ In o (change_removes k c).
Proof.
  intros Hf Hc Ek Ek' Hfl. destruct (core_fwd_flags _ _ _ Hf Hc) as (cl0 & cl1 & Ek0 & -> & Et & _ & _ & Eo & Fh & Fs & _).
  rewrite Ek in Ek0. cbn [snd] in Ek'. injection Ek0 as <-. injection Ek' as <-.
  assert (Hct : ctxid_of k = c_txid cl) by (unfold ctxid_of; rewrite Ek; reflexivity).
  unfold flagged in *. rewrite Et, Fh, Fs in Hfl.
  destruct c as [| | | |v|v slo|o0]; try discriminate; cbn [change_removes]; rewrite ?Hct.
  - destruct Eo as [_ Eo]. rewrite Eo in Hfl. destruct Hfl as [[E1 [E2 | E2]] | E2]; auto.
    inversion E2. right. left. rewrite <- E1. symmetry. apply surjective_pairing.
  - rewrite Eo in Hfl. destruct Hfl as [[E1 [E2 | E2]] | E2]; auto.
    + destruct (v =? snd o) eqn:Ev; [|auto]. apply N.eqb_eq in Ev. right. left. rewrite Ev, <- E1. symmetry. apply surjective_pairing.
    + left. right. destruct (sflag cl o); [exact E2 | destruct (op_eqb slo o); discriminate].
  - rewrite Eo in Hfl. destruct Hfl as [[E1 E2] | E2]; auto.
    destruct (op_eqb o0 o) eqn:Ev; [|auto]. apply op_eqb_eq in Ev. right. left. exact Ev.
Qed.

Section Inv.
Variable g : cfg.
Notation F := (fund g).

Record KInv (S : list outpoint) (T : list N) (k : core) : Prop := {
  K_fo : fst k = None \/ (fst k = Some F /\ In (ftxid g) T);
  K_fin : fst k <> None -> forall i, In i (finputs g) -> In i S;
  K_cf : snd k <> None -> fst k <> None;
  K_clo : snd k <> None -> In F S;
  K_ctx : forall cl, snd k = Some cl -> In (c_txid cl) T /\ (forall o, In o (slos cl) -> In (fst o) T);
  K_spent : forall cl o, snd k = Some cl -> flagged cl o -> In o S
}.

Lemma KInv_mono S T S' T' k : incl S S' -> incl T T' -> KInv S T k -> KInv S' T' k.
Proof.
  intros HS HT [H1 H2 H3 H4 H5 H6]. constructor.
  - destruct H1 as [H | [H H']]; [left; exact H | right; split; [exact H | apply HT; exact H']].
  - intros Hn i Hi. apply HS. apply H2; assumption.
  - exact H3.
  - intros Hn. apply HS. apply H4. exact Hn.
  - intros cl Hcl. destruct (H5 cl Hcl) as [A B]. split; [apply HT; exact A | intros o Ho; apply HT; apply B; exact Ho].
  - intros cl o Hcl Ho. apply HS. eapply H6; eassumption.
Qed.

Lemma KInv_init : KInv [] [] (None, None).
Proof. constructor; cbn; try congruence; auto; intros; discriminate. Qed.

Definition cjust (ins : list outpoint) (tids : list N) (k : core) (c : change) : Prop :=
  match c with
  | FundingConfirmed o => o = F /\ incl (finputs g) ins
  | FundingInputSpent o => In o (finputs g)
  | UnilateralClose txid f _ _ => fst k = Some f /\ In txid tids
  | MutualClose _ f => fst k = Some f
  | _ => True
  end.
Definition cin (ins : list outpoint) (k : core) (c : change) : Prop := incl (change_removes k c) ins.
(** what a consistent transaction with inputs [ins] and id in [tids] guarantees of a change it
    produces on core [k]: it can be undone, it spends inputs, it adds outputs of the transaction *)
Definition cok (ins : list outpoint) (tids : list N) (k : core) (c : change) : Prop :=
  cpre k c /\ cjust ins tids k c /\ cin ins k c
  /\ (forall a, In a (change_adds k c) -> In (fst a) tids /\ ~ In a (finputs g)).
Definition chain_ok (ins : list outpoint) (tids : list N) (k : core) (cs : list change) : Prop :=
  crun (cok ins tids) k cs.

Lemma kinv_step S T ins tids k c k' :
  KInv S T k -> cok ins tids k c -> incl ins S -> incl tids T -> core_fwd k c = Ok k' -> KInv S T k'.
Proof.
  intros [H1 H2 H3 H4 H5 H6] (_ & Hj & Hi & Ha0) HS HT Hf.
  assert (Hr : incl (change_removes k c) S) by (intros x Hx; apply HS, Hi, Hx).
  assert (Ha : forall a, In a (change_adds k c) -> In (fst a) T) by (intros a Hin; apply HT, (Ha0 a Hin)).
  destruct (needs_closing c) eqn:Hc.
  - destruct (core_fwd_flags _ _ _ Hf Hc) as (cl & cl' & Ek & -> & Et & _ & Es & _).
    assert (Hn : snd k <> None) by (rewrite Ek; discriminate).
    constructor; cbn [fst snd]; auto.
    + intros c0 E0. inversion E0; subst c0. destruct (H5 cl Ek) as [C1 C2]. rewrite Et. split; [exact C1|].
      intros o Ho. unfold slos in Ho. rewrite Es in Ho. apply in_app_or in Ho. destruct Ho as [Ho | Ho]; [apply C2; exact Ho|].
      destruct c as [| | | | |v slo|]; try (destruct Ho; fail). apply Ha. exact Ho.
    + intros c0 o E0 Hfl. destruct (flagged_fwd _ _ _ _ _ _ Hf Hc Ek E0 Hfl) as [G | G]; [exact (H6 cl o Ek G) | exact (Hr o G)].
  - destruct c; try discriminate; cbn [core_fwd cjust] in *; inversion Hf; subst; try (constructor; assumption).
    + destruct Hj as [-> Hj2]. pose proof (Ha _ (or_introl eq_refl)) as Hj1. pose proof (fun i Hin => HS i (Hj2 i Hin)) as Hj3.
      constructor; cbn [fst snd]; auto. intros _. discriminate.
    + (* UnilateralClose: nothing of the new closing is flagged *)
      destruct Hj as [Hj3 Hj2]. apply HT in Hj2.
      assert (Hj1 : In F S) by (apply Hr; left; destruct H1 as [E | [E _]]; congruence).
      assert (Hfn : fst k <> None) by congruence.
      constructor; cbn [fst snd]; auto.
      * intros cl E. inversion E; subst. cbn. split; [exact Hj2 | intros o []].
      * intros cl o E Hfl. inversion E; subst. exfalso. destruct Hfl as [[_ [Hfl | Hfl]] | Hfl].
        -- cbn in Hfl. destruct our; discriminate.
        -- discriminate (aflag_const N.eqb _ _ _ _ Hfl).
        -- discriminate.
Qed.

Record txhyp (S : list outpoint) (T : list N) (t : tx) : Prop := {
  h_nodup : NoDup (tx_ins t);
  h_fresh : forall i, In i (tx_ins t) -> ~ In i S;
  h_tid : ~ In (tx_id t) T;
  h_self : forall i, In i (tx_ins t) -> fst i <> tx_id t;
  h_later : ~ In (tx_id t) (map fst S);
  h_fund : tx_id t = ftxid g -> incl (finputs g) (tx_ins t)
}.

Lemma nodup_op_NoDup l : nodup_op l = true -> NoDup l.
Proof.
  induction l as [|x r IH]; cbn [nodup_op]; intros H; [constructor|].
  apply andb_true_iff in H. destruct H as [H1 H2]. apply negb_true_iff, mem_op_nIn in H1.
  constructor; [exact H1 | apply IH; exact H2].
Qed.

Lemma tx_ok_hyp S T t : tx_ok g S T t = true -> txhyp S T t.
Proof.
  unfold tx_ok. rewrite !andb_true_iff. intros [[[[[H1 H2] H3] H4] H5] H6]. constructor.
  - apply nodup_op_NoDup. exact H1.
  - intros i Hi. rewrite forallb_forall in H2. specialize (H2 i Hi). apply negb_true_iff, mem_op_nIn in H2. exact H2.
  - apply negb_true_iff, mem_N_nIn in H3. exact H3.
  - intros i Hi. rewrite forallb_forall in H4. specialize (H4 i Hi). apply negb_true_iff, N.eqb_neq in H4. exact H4.
  - apply negb_true_iff, mem_N_nIn in H5. exact H5.
  - intros E. apply N.eqb_eq in E. rewrite E in H6. rewrite forallb_forall in H6. intros i Hi. apply mem_op_In. apply H6. exact Hi.
Qed.

Lemma chain_ok_mono ins tids ins' tids' cs : incl ins ins' -> incl tids tids' -> forall k,
  chain_ok ins tids k cs -> chain_ok ins' tids' k cs.
Proof.
  intros Hi Ht. apply crun_mono. intros k c (H1 & H2 & H3 & H4). split; [exact H1|]. split; [|split].
  - destruct c; cbn [cjust] in *; auto; destruct H2 as [E H2]; (split; [exact E|]); [intros x Hx; apply Hi, H2, Hx | apply Ht, H2].
  - intros x Hx. apply Hi, H3, Hx.
  - intros a Ha. destruct (H4 a Ha). split; [apply Ht|]; assumption.
Qed.
Lemma chain_ok_cpre ins tids cs k : chain_ok ins tids k cs -> chain_cpre k cs.
Proof. apply (crun_mono (cok ins tids) cpre). intros k0 c H. apply H. Qed.

Definition seg ins tids (k : core) (cs : list change) (k' : core) : Prop :=
  core_fwds k cs = Ok k' /\ chain_ok ins tids k cs.

Lemma seg_one ins tids k c k' : core_fwd k c = Ok k' -> cok ins tids k c -> seg ins tids k [c] k'.
Proof.
  intros Hf Hc. split; [cbn [core_fwds]; rewrite Hf; reflexivity|]. split; [exact Hc | intros; exact I].
Qed.
Lemma seg_app ins tids k a k1 b k2 : seg ins tids k a k1 -> seg ins tids k1 b k2 -> seg ins tids k (a ++ b) k2.
Proof.
  intros (A1 & A2) (B1 & B2). split; [rewrite core_fwds_app, A1; exact B1|].
  apply crun_app. split; [exact A2|]. intros kx Ex. rewrite A1 in Ex. inversion Ex; subst. exact B2.
Qed.

Definition recognised (k : core) (i : outpoint) (kd : ckind) : Prop :=
  match kd with
  | KOur => exists cl b, snd k = Some cl /\ fst i = c_txid cl /\ c_our cl = Some (snd i, b)
  | KHtlc => exists cl, snd k = Some cl /\ fst i = c_txid cl /\ In (snd i) (htlc_idx cl)
  | KSecond => exists cl, snd k = Some cl /\ In i (slos cl)
  | KNone => True
  end.

Lemma ckind_of_inv k i kd : ckind_of k i = kd -> recognised k i kd.
Proof.
  intros <-. unfold ckind_of. destruct (snd k) as [cl|] eqn:Ek; [|exact I]. unfold ckind_cl.
  destruct (includes_our cl i) eqn:E1; [|destruct (includes_htlc cl i) eqn:E2; [|destruct (includes_second cl i) eqn:E3; [|exact I]]];
    exists cl.
  - unfold includes_our in E1. apply andb_true_iff in E1. destruct E1 as [E1 E1']. apply N.eqb_eq in E1.
    destruct (c_our cl) as [[a b]|]; [|discriminate]. apply N.eqb_eq in E1'. subst a. exists b. auto.
  - unfold includes_htlc in E2. apply andb_true_iff in E2. destruct E2 as [E2 E2']. apply N.eqb_eq in E2.
    apply existsb_exists in E2'. destruct E2' as [x [Hx Ex]]. apply N.eqb_eq in Ex.
    repeat split; auto. rewrite <- Ex. apply in_map, Hx.
  - unfold includes_second in E3. apply existsb_exists in E3. destruct E3 as [x [Hx Ex]]. apply op_eqb_eq in Ex. subst i.
    split; [exact Ek | apply in_map, Hx].
Qed.

Lemma fo_hit_inv k i : fo_hit k i = true -> fst k = Some i.
Proof. unfold fo_hit. destruct (fst k) as [f|]; [|discriminate]. intros H. apply op_eqb_eq in H. subst. reflexivity. Qed.
Lemma ckind_none k i : snd k = None -> ckind_of k i = KNone.
Proof. unfold ckind_of. intros ->. reflexivity. Qed.

Lemma hits_in k0 ins : forall m v n, In (v, n) (htlc_hits k0 ins m) ->
  exists i, In i ins /\ ckind_of k0 i = KHtlc /\ v = snd i /\ m <= n.
Proof.
  induction ins as [|i r IH]; intros m v n H; cbn [htlc_hits] in H; [destruct H|].
  apply in_app_or in H. destruct H as [H | H].
  - destruct (ckind_of k0 i) eqn:E; cbn [In] in H; try contradiction. destruct H as [H | []]. inversion H; subst.
    exists i. repeat split; auto. left; reflexivity. lia.
  - destruct (IH _ _ _ H) as [j (H1 & H2 & H3 & H4)]. exists j. repeat split; auto. right; exact H1. lia.
Qed.
Lemma hits_nodup_snd k0 ins : forall m, NoDup (map snd (htlc_hits k0 ins m)).
Proof.
  induction ins as [|i r IH]; intros m; cbn [htlc_hits map]; [constructor|].
  rewrite map_app. destruct (ckind_of k0 i); cbn [map app snd]; try apply IH.
  constructor; [|apply IH]. intros H. apply in_map_iff in H. destruct H as [[v n] [E H]]. cbn in E. subst.
  destruct (hits_in _ _ _ _ _ H) as [j (_ & _ & _ & Hle)]. lia.
Qed.
Lemma hits_none k ins : snd k = None -> forall m, htlc_hits k ins m = [].
Proof.
  intros H. induction ins as [|i r IH]; intros m; cbn [htlc_hits]; [reflexivity|].
  rewrite (ckind_none _ _ H), IH. reflexivity.
Qed.
Lemma closing_prev_inv k ins : forall acc f, closing_prev k ins acc = Some f ->
  acc = Some f \/ (In f ins /\ fst k = Some f).
Proof.
  induction ins as [|i r IH]; intros acc f H; cbn [closing_prev] in H; [left; exact H|].
  destruct (IH _ _ H) as [E | [E1 E2]].
  - destruct (fo_hit k i) eqn:Eh; [|left; exact E]. inversion E; subst. right. split; [left; reflexivity | apply fo_hit_inv; exact Eh].
  - right. split; [right; exact E1 | exact E2].
Qed.
Lemma closing_prev_nohit k ins : (forall i, In i ins -> fo_hit k i = false) -> forall acc, closing_prev k ins acc = acc.
Proof.
  induction ins as [|i r IH]; intros H acc; cbn [closing_prev]; [reflexivity|].
  rewrite (H i (or_introl eq_refl)). apply IH. intros j Hj. apply H. right. exact Hj.
Qed.

Lemma NoDup_app_inv {A} (a b : list A) : NoDup (a ++ b) <-> NoDup a /\ NoDup b /\ forall x, In x a -> ~ In x b.
Proof.
  induction a as [|y r IH]; cbn [app].
  - split; [intros H; split; [constructor | split; [exact H | intros x []]] | intros (_ & H & _); exact H].
  - split.
    + intros H. inversion H as [|? ? H2 H3]; subst. apply IH in H3. destruct H3 as (G0 & G1 & G2). split; [|split; [exact G1|]].
      * constructor; [intros Hy; apply H2, in_or_app; left; exact Hy | exact G0].
      * intros x [<- | Hx]; [intros Hb; apply H2, in_or_app; right; exact Hb | apply G2; exact Hx].
    + intros (H1 & H2 & H3). inversion H1 as [|? ? G1 G2]; subst. constructor.
      * intros Hy. apply in_app_or in Hy. destruct Hy as [Hy | Hy]; [exact (G1 Hy) | exact (H3 y (or_introl eq_refl) Hy)].
      * apply IH. split; [exact G2 | split; [exact H2 | intros x Hx; apply H3; right; exact Hx]].
Qed.

Lemma flag_run ins tids : forall cs k,
  (forall c, In c cs -> needs_closing c = true /\ cpre k c /\ incl (change_removes k c) ins
     /\ forall a, In a (change_adds k c) -> In (fst a) tids /\ ~ In a (finputs g)) ->
  NoDup (concat (map (change_removes k) cs)) -> NoDup (concat (map new_slos cs)) ->
  exists k', seg ins tids k cs k'.
Proof.
  induction cs as [|c r IH]; intros k Hcs Hnd Hns.
  - exists k. split; [reflexivity | exact I].
  - destruct (Hcs c (or_introl eq_refl)) as (Hc & Hp & Hi & Ha). cbn [map concat] in Hnd, Hns.
    apply NoDup_app_inv in Hnd, Hns. destruct Hnd as (_ & Hnd & Hnd1). destruct Hns as (_ & Hns & Hns1).
    destruct (core_undo _ _ Hp) as [k1 [Hf _]].
    pose proof (fun c2 => change_removes_ctxid _ _ c2 (core_fwd_ctxid _ _ _ Hf Hc)) as Hrm.
    assert (Hcok : cok ins tids k c) by (split; [exact Hp|]; split; [destruct c; try discriminate; exact I|]; split; [exact Hi | exact Ha]).
    pose proof (seg_one _ _ _ _ _ Hf Hcok) as Hseg.
    destruct (IH k1) as [k' G1]; [| rewrite (map_ext _ _ Hrm); exact Hnd | exact Hns |].
    + (* the later changes still apply: their targets are others *)
      intros c2 Hc2. destruct (Hcs c2 (or_intror Hc2)) as (Q1 & Q2 & Q3 & Q5).
      rewrite Hrm. split; [exact Q1|]. split; [|split; [exact Q3 | exact Q5]].
      apply (cpre_frame _ _ _ _ Hf Hc Q1 Q2).
      * intros E. destruct c2; try discriminate; cbn [change_removes] in E;
          (eapply (Hnd1 _); [rewrite E; left; reflexivity | apply in_concat; eexists; split; [apply in_map; exact Hc2 | left; reflexivity]]).
      * intros o Ho Ho2. apply (Hns1 o Ho). apply in_concat. eexists. split; [apply in_map; exact Hc2 | exact Ho2].
    + exists k'. exact (seg_app _ _ _ [c] _ r _ Hseg G1).
Qed.

(** the parts of [end_changes] and [input_changes] that depend on the closing (same bodies), named so that
    [tx_changes_noclosing] and [tx_changes_closing] can state [tx_changes] by cases on it *)
Definition close_changes (t : tx) (cp : option outpoint) : list change :=
  match cp with
  | Some prev => match tx_close t with
                 | Commitment our h => [UnilateralClose (tx_id t) prev our h]
                 | NotCommitment => [MutualClose (tx_id t) prev]
                 | CommitmentNoInfo => []
                 end
  | None => []
  end.
Definition input_cc (k : core) (i : outpoint) : list change :=
  match ckind_of k i with
  | KOur => [OurOutputSpent (snd i)]
  | KSecond => [SecondLevelSpent i]
  | _ => []
  end.

Lemma tx_changes_noclosing k t : snd k = None ->
  tx_changes g k t = map FundingInputSpent (filter (fun i => mem_op i (finputs g)) (tx_ins t))
                     ++ (if tx_id t =? ftxid g then [FundingConfirmed (tx_id t, fvout g)] else [])
                     ++ close_changes t (closing_prev k (tx_ins t) None).
Proof.
  intros H. unfold tx_changes, end_changes. rewrite (hits_none _ _ H). cbn [hos_changes map]. rewrite app_nil_r. f_equal.
  unfold inputs_changes. induction (tx_ins t) as [|i r IH]; cbn [map concat filter]; [reflexivity|].
  rewrite IH. unfold input_changes. rewrite (ckind_none _ _ H), app_nil_r. destruct (mem_op i (finputs g)); reflexivity.
Qed.
Lemma tx_changes_closing S T k t cl : KInv S T k -> txhyp S T t -> snd k = Some cl ->
  tx_changes g k t = concat (map (input_cc k) (tx_ins t)) ++ hos_changes t (htlc_hits k (tx_ins t) 0).
Proof.
  intros Hk Hh Ecl. assert (Hn : snd k <> None) by (rewrite Ecl; discriminate).
  assert (Hfo : fst k = Some F /\ In (ftxid g) T) by (destruct (K_fo _ _ _ Hk) as [H | H]; [destruct (K_cf _ _ _ Hk Hn H) | exact H]).
  unfold tx_changes, end_changes.
  assert ((tx_id t =? ftxid g) = false) as -> by (apply N.eqb_neq; intros E; apply (h_tid _ _ _ Hh); rewrite E; apply Hfo).
  assert (closing_prev k (tx_ins t) None = None) as ->.
  { destruct (closing_prev k (tx_ins t) None) as [f|] eqn:E; [|reflexivity]. exfalso.
    destruct (closing_prev_inv _ _ _ _ E) as [E' | [E1 E2]]; [discriminate|]. rewrite (proj1 Hfo) in E2. inversion E2; subst f.
    apply (h_fresh _ _ _ Hh _ E1). apply (K_clo _ _ _ Hk Hn). }
  cbn [app]. f_equal. unfold inputs_changes. f_equal. apply map_ext_in. intros i Hi. unfold input_changes.
  assert (mem_op i (finputs g) = false) as ->; [|reflexivity].
  apply mem_op_nIn. intros Hin. apply (h_fresh _ _ _ Hh i Hi). apply (K_fin _ _ _ Hk); [rewrite (proj1 Hfo); discriminate | exact Hin].
Qed.

Lemma fis_run ins tids k os : incl os (finputs g) -> incl os ins ->
  seg ins tids k (map FundingInputSpent os) k.
Proof.
  induction os as [|o r IH]; intros H1 H2; [split; [reflexivity | exact I]|].
  destruct (IH (fun x Hx => H1 x (or_intror Hx)) (fun x Hx => H2 x (or_intror Hx))) as (A1 & A2).
  split; [exact A1|]. split.
  - split; [exact I|]. split; [apply H1; left; reflexivity|]. split; [intros x [<- | []]; apply H2; left; reflexivity | intros a []].
  - intros k' E. inversion E; subst. exact A2.
Qed.

Lemma input_cc_ok S T k t cl i c : KInv S T k -> txhyp S T t -> snd k = Some cl -> In i (tx_ins t) -> In c (input_cc k i) ->
  needs_closing c = true /\ cpre k c /\ change_removes k c = [i] /\ change_adds k c = [].
Proof.
  intros Hk Hh Ecl Hi Hc. unfold input_cc in Hc. assert (Hct : ctxid_of k = c_txid cl) by (unfold ctxid_of; rewrite Ecl; reflexivity).
  destruct (ckind_of k i) eqn:Ek; cbn [In] in Hc; try contradiction; destruct Hc as [<- | []]; cbn [needs_closing cpre change_removes change_adds].
  - destruct (ckind_of_inv _ _ _ Ek) as [cl0 [b (E1 & E3 & E2)]]. rewrite Ecl in E1. inversion E1; subst cl0.
    split; [reflexivity|]. split; [|rewrite Hct, <- E3, <- surjective_pairing; repeat split].
    exists cl. split; [exact Ecl|]. destruct b; [|exact E2]. exfalso. apply (h_fresh _ _ _ Hh i Hi).
    apply (K_spent _ _ _ Hk cl i Ecl). left. split; [exact E3 | left; exact E2].
  - destruct (ckind_of_inv _ _ _ Ek) as [cl0 (E1 & E2)]. rewrite Ecl in E1. inversion E1; subst cl0.
    split; [reflexivity|]. split; [|repeat split].
    exists cl. split; [exact Ecl|]. apply sflag_in in E2. destruct (sflag cl i) as [[|]|] eqn:Es; [|reflexivity|contradiction].
    exfalso. apply (h_fresh _ _ _ Hh i Hi). apply (K_spent _ _ _ Hk cl i Ecl). right. exact Es.
Qed.
Lemma hit_ok S T k t cl v n : KInv S T k -> txhyp S T t -> snd k = Some cl -> In (v, n) (htlc_hits k (tx_ins t) 0) ->
  exists i, In i (tx_ins t) /\ i = (c_txid cl, v)
    /\ hflag cl v = Some false /\ ~ In (tx_id t, n) (slos cl).
Proof.
  intros Hk Hh Ecl Hin. destruct (hits_in _ _ _ _ _ Hin) as [i (Hi & Hki & Hv & _)]. exists i. split; [exact Hi|].
  destruct (ckind_of_inv _ _ _ Hki) as [cl0 (A1 & A2 & A3)]. rewrite Ecl in A1. inversion A1; subst cl0.
  split; [rewrite <- A2, Hv; apply surjective_pairing|]. split.
  - rewrite Hv. apply hflag_in in A3. destruct (hflag cl (snd i)) as [[|]|] eqn:Ef; [|reflexivity|contradiction].
    exfalso. apply (h_fresh _ _ _ Hh i Hi). apply (K_spent _ _ _ Hk cl i Ecl). left. split; [exact A2 | right; exact Ef].
  - intros Hs. apply (h_tid _ _ _ Hh). apply (proj2 (K_ctx _ _ _ Hk cl Ecl) _ Hs).
Qed.

Definition is_cc (k : core) (i : outpoint) : bool := match ckind_of k i with KOur | KSecond => true | _ => false end.
Definition is_hit (k : core) (i : outpoint) : bool := match ckind_of k i with KHtlc => true | _ => false end.
(** the outpoint a flag change of a transaction removes is the input that caused it *)
Lemma cc_targets k cl ins : snd k = Some cl ->
  concat (map (change_removes k) (concat (map (input_cc k) ins))) = filter (is_cc k) ins.
Proof.
  intros Ecl. assert (Hct : ctxid_of k = c_txid cl) by (unfold ctxid_of; rewrite Ecl; reflexivity).
  induction ins as [|i r IH]; cbn [map concat filter]; [reflexivity|]. rewrite map_app, concat_app, IH. unfold input_cc, is_cc.
  destruct (ckind_of k i) eqn:Ek; cbn [map concat app change_removes]; try reflexivity.
  destruct (ckind_of_inv _ _ _ Ek) as [cl0 [b (E1 & E3 & _)]]. rewrite Ecl in E1. injection E1 as <-. rewrite Hct, <- E3, <- surjective_pairing. reflexivity.
Qed.
Lemma hit_targets k cl ins : snd k = Some cl -> forall n,
  map (fun p => (c_txid cl, fst p)) (htlc_hits k ins n) = filter (is_hit k) ins.
Proof.
  intros Ecl. induction ins as [|i r IH]; intros n; cbn [htlc_hits map filter]; [reflexivity|]. rewrite map_app, IH. unfold is_hit.
  destruct (ckind_of k i) eqn:Ek; cbn [map app fst]; try reflexivity.
  destruct (ckind_of_inv _ _ _ Ek) as [cl0 (E1 & E3 & _)]. rewrite Ecl in E1. injection E1 as <-. rewrite <- E3, <- surjective_pairing. reflexivity.
Qed.

Lemma concat_singletons {A B} (f : A -> B) l : concat (map (fun x => [f x]) l) = map f l.
Proof. induction l as [|x r IH]; cbn [map concat app]; [reflexivity | rewrite IH; reflexivity]. Qed.
Lemma NoDup_map_finer {A B C} (f : A -> B) (f' : A -> C) l :
  (forall x y, f' x = f' y -> f x = f y) -> NoDup (map f l) -> NoDup (map f' l).
Proof.
  intros Hfg. induction l as [|a r IH]; cbn [map]; intros H; inversion H as [|? ? Ha Hr]; subst; constructor; [|exact (IH Hr)].
  intros Hi. apply in_map_iff in Hi. destruct Hi as [y [E Hy]]. apply Ha. rewrite <- (Hfg _ _ E). apply in_map, Hy.
Qed.

Lemma tx_outs_not_finputs S T k t : KInv S T k -> txhyp S T t -> fst k <> None -> forall n, ~ In (tx_id t, n) (finputs g).
Proof.
  intros Hk Hh Hfo n Hin. apply (h_later _ _ _ Hh). apply in_map_iff. exists (tx_id t, n). split; [reflexivity|]. eapply K_fin; eassumption.
Qed.

Lemma tx_seg_closing S T k t cl :
  KInv S T k -> txhyp S T t -> snd k = Some cl ->
  exists k', seg (tx_ins t) [tx_id t] k (tx_changes g k t) k'.
Proof.
  intros Hk Hh Ecl. rewrite (tx_changes_closing _ _ _ _ _ Hk Hh Ecl).
  assert (Hfn : fst k <> None) by (apply (K_cf _ _ _ Hk); rewrite Ecl; discriminate).
  assert (Hct : ctxid_of k = c_txid cl) by (unfold ctxid_of; rewrite Ecl; reflexivity).
  set (A := concat (map (input_cc k) (tx_ins t))). set (hits := htlc_hits k (tx_ins t) 0).
  assert (HA : forall c, In c A -> exists i, In i (tx_ins t) /\ In c (input_cc k i)).
  { intros c Hc. apply in_concat in Hc. destruct Hc as [l [Hl Hc]]. apply in_map_iff in Hl. destruct Hl as [i [<- Hi]]. eauto. }
  assert (HnA : forall c, In c A -> new_slos c = []).
  { intros c Hc. destruct (HA c Hc) as [i [_ Hci]]. unfold input_cc in Hci.
    destruct (ckind_of k i); cbn [In] in Hci; try contradiction; destruct Hci as [<- | []]; reflexivity. }
  apply (flag_run (tx_ins t) [tx_id t] (A ++ hos_changes t hits) k).
  - intros c Hc. apply in_app_or in Hc. destruct Hc as [Hc | Hc].
    + destruct (HA c Hc) as [i [Hi Hci]].
      destruct (input_cc_ok _ _ _ _ _ i c Hk Hh Ecl Hi Hci) as (G1 & G2 & G3 & G4). rewrite G3, G4.
      split; [exact G1|]. split; [exact G2|]. split; [intros x [<- | []]; exact Hi | intros a []].
    + unfold hos_changes in Hc. apply in_map_iff in Hc. destruct Hc as [[v n] [<- Hin]]. cbn [fst snd change_removes change_adds]. rewrite Hct.
      destruct (hit_ok _ _ _ _ _ _ _ Hk Hh Ecl Hin) as [i (Hi & -> & Hfl & Hsl)].
      split; [reflexivity|]. split; [exists cl; auto|]. split; [intros x [<- | []]; exact Hi|].
      intros a [<- | []]. cbn [fst]. split; [left; reflexivity | exact (tx_outs_not_finputs _ _ _ _ Hk Hh Hfn _)].
  - (* no outpoint is removed twice: the inputs are distinct, and an HTLC output is no other kind of output *)
    rewrite map_app, concat_app. unfold A, hits, hos_changes. rewrite (cc_targets _ _ _ Ecl), map_map. cbn [change_removes fst snd].
    rewrite Hct, concat_singletons, (hit_targets _ _ _ Ecl). apply NoDup_app_inv.
    split; [apply NoDup_filter, (h_nodup _ _ _ Hh)|]. split; [apply NoDup_filter, (h_nodup _ _ _ Hh)|].
    intros o Ho Ho'. apply filter_In in Ho, Ho'. unfold is_cc, is_hit in *. destruct (ckind_of k o), Ho, Ho'; discriminate.
  - (* the new second-level outpoints carry distinct input positions *)
    rewrite map_app, concat_app, (proj2 (concat_nil_Forall (map new_slos A))), app_nil_l.
    + unfold hos_changes. rewrite map_map. cbn [new_slos fst snd]. rewrite concat_singletons.
      apply (NoDup_map_finer snd); [intros x y E; inversion E; reflexivity|]. exact (hits_nodup_snd k (tx_ins t) 0).
    + apply Forall_map, Forall_forall. exact HnA.
Qed.

Lemma tx_seg_open S T k t :
  KInv S T k -> txhyp S T t -> snd k = None ->
  exists k', seg (tx_ins t) [tx_id t] k (tx_changes g k t) k'.
Proof.
  intros Hk Hh Ecl. rewrite (tx_changes_noclosing _ _ Ecl).
  assert (Hfis : seg (tx_ins t) [tx_id t] k (map FundingInputSpent (filter (fun i => mem_op i (finputs g)) (tx_ins t))) k).
  { apply fis_run; intros x Hx; apply filter_In in Hx; [apply mem_op_In, Hx | apply Hx]. }
  destruct (tx_id t =? ftxid g) eqn:Etid.
  - apply N.eqb_eq in Etid.
    assert (Hfo0 : fst k = None).
    { destruct (K_fo _ _ _ Hk) as [H | [_ H]]; [exact H|]. destruct (h_tid _ _ _ Hh). rewrite Etid. exact H. }
    rewrite closing_prev_nohit by (intros i _; unfold fo_hit; rewrite Hfo0; reflexivity). cbn [close_changes]. rewrite app_nil_r.
    eexists. apply (seg_app _ _ _ _ _ _ _ Hfis). apply (seg_one _ _ k (FundingConfirmed (tx_id t, fvout g)) (Some (tx_id t, fvout g), snd k) eq_refl).
    split; [exact Hfo0|]. split; [split; [unfold fund; rewrite Etid; reflexivity | exact (h_fund _ _ _ Hh Etid)]|]. split; [intros x []|].
    intros a [<- | []]. cbn [fst]. split; [left; reflexivity|].
    intros Hin. apply (h_self _ _ _ Hh _ (h_fund _ _ _ Hh Etid _ Hin)). reflexivity.
  - cbn [app]. destruct (closing_prev k (tx_ins t) None) as [f|] eqn:Ecp; [|cbn [close_changes]; rewrite app_nil_r; exists k; exact Hfis].
    destruct (closing_prev_inv _ _ _ _ Ecp) as [E' | [Ef1 Ef2]]; [discriminate|].
    assert (Hfn : fst k <> None) by congruence.
    cbn [close_changes]. destruct (tx_close t) as [|our h|]; [| |rewrite app_nil_r; exists k; exact Hfis];
      eexists; apply (seg_app _ _ _ _ _ _ _ Hfis).
    + apply (seg_one _ _ k (MutualClose (tx_id t) f) k eq_refl).
      split; [exact I|]. split; [exact Ef2|]. split; [intros x [<- | []]; exact Ef1 | intros a []].
    + apply (seg_one _ _ k (UnilateralClose (tx_id t) f our h) (fst k, Some (new_closing (tx_id t) our h)) eq_refl).
      split; [exact Ecl|]. split; [split; [exact Ef2 | left; reflexivity]|]. split; [intros x [<- | []]; exact Ef1|]. intros a Ha. cbn [change_adds] in Ha.
      assert (Hfa : fst a = tx_id t).
      { apply in_app_or in Ha. destruct Ha as [Ha | Ha]; [destruct our; [destruct Ha as [<- | []]; reflexivity | destruct Ha]|].
        apply in_map_iff in Ha. destruct Ha as [x [<- _]]. reflexivity. }
      split; [left; symmetry; exact Hfa|]. rewrite (surjective_pairing a), Hfa. exact (tx_outs_not_finputs _ _ _ _ Hk Hh Hfn _).
Qed.

(** the changes of a consistent transaction all meet [cok]; the invariant then carries over change by change *)
Theorem tx_spec S T k t : KInv S T k -> txhyp S T t ->
  exists k', core_fwds k (tx_changes g k t) = Ok k'
    /\ chain_ok (tx_ins t) [tx_id t] k (tx_changes g k t)
    /\ KInv (tx_ins t ++ S) (tx_id t :: T) k'.
Proof.
  intros Hk Hh.
  assert (Hseg : exists k', seg (tx_ins t) [tx_id t] k (tx_changes g k t) k')
    by (destruct (snd k) as [cl|] eqn:Ecl; [eapply tx_seg_closing | eapply tx_seg_open]; eassumption).
  destruct Hseg as [k' [Hf Hc]]. exists k'. split; [exact Hf|]. split; [exact Hc|].
  assert (HT : incl [tx_id t] (tx_id t :: T)) by (intros x [<- | []]; left; reflexivity).
  apply (crun_inv _ (KInv (tx_ins t ++ S) (tx_id t :: T))
           (fun k0 c k1 Hc0 Hf0 Hi => kinv_step _ _ _ _ _ _ _ Hi Hc0 (incl_appl _ (incl_refl _)) HT Hf0) _ _ _ Hc Hf).
  exact (KInv_mono _ _ _ _ _ (incl_appr _ (incl_refl _)) (incl_tl _ (incl_refl _)) Hk).
Qed.

Definition spent_after (S : list outpoint) (b : block) : list outpoint :=
  fold_left (fun S t => tx_ins t ++ S) b S.
Definition tids_after (T : list N) (b : block) : list N :=
  fold_left (fun T t => tx_id t :: T) b T.
Definition ins_of (b : block) : list outpoint := concat (map tx_ins b).
Definition tids_of (b : block) : list N := map tx_id b.

Lemma in_fold_app {A B} (f : A -> list B) (b : list A) x : forall acc,
  In x (fold_left (fun a t => f t ++ a) b acc) <-> In x acc \/ In x (concat (map f b)).
Proof.
  induction b as [|t r IH]; intros acc; cbn [fold_left map concat In]; [tauto|]. rewrite IH, !in_app_iff. tauto.
Qed.
Lemma in_spent_after S b x : In x (spent_after S b) <-> In x S \/ In x (ins_of b).
Proof. apply in_fold_app. Qed.
Lemma in_tids_after T b x : In x (tids_after T b) <-> In x T \/ In x (tids_of b).
Proof. unfold tids_of. rewrite <- concat_singletons. exact (in_fold_app (fun t => [tx_id t]) b x T). Qed.

Theorem block_spec b : forall S T k chs k',
  KInv S T k -> txs_ok g S T b = true -> steps g k b chs k' ->
  chain_ok (ins_of b) (tids_of b) k chs /\ KInv (spent_after S b) (tids_after T b) k'.
Proof.
  induction b as [|t r IH]; intros S T k chs k' Hk Hok Hs.
  - inversion Hs; subst. cbn. auto.
  - inversion Hs as [| ? ? ? ka chs' ? Ha Hf Hr]; subst.
    cbn [txs_ok] in Hok. apply andb_true_iff in Hok. destruct Hok as [H1 H2].
    destruct (tx_spec _ _ _ _ Hk (tx_ok_hyp _ _ _ H1)) as [kb (G1 & G2 & G3)].
    rewrite Hf in G1. inversion G1; subst kb.
    destruct (IH _ _ _ _ _ G3 H2 Hr) as [I1 I2]. split; [|exact I2].
    apply crun_app. split.
    + eapply chain_ok_mono; [| |exact G2]; unfold ins_of, tids_of; cbn [map concat].
      * apply incl_appl, incl_refl.
      * intros x [<- | []]. left; reflexivity.
    + intros kx Ex. rewrite Hf in Ex. inversion Ex; subst kx.
      eapply chain_ok_mono; [| |exact I1]; unfold ins_of, tids_of; cbn [map concat].
      * apply incl_appr, incl_refl.
      * apply incl_tl, incl_refl.
Qed.

Lemma input_asserts_nohit k ins : (forall i, In i ins -> fo_hit k i = false) -> forall n, input_asserts k n None ins = true.
Proof.
  induction ins as [|i r IH]; intros H n; cbn [input_asserts]; [reflexivity|].
  rewrite (H i (or_introl eq_refl)). cbn [andb]. apply IH. intros j Hj. apply H. right. exact Hj.
Qed.

Lemma asserts_wf S T k t : KInv S T k -> tx_wf g t = true -> asserts_ok g k t = true.
Proof.
  intros Hk Hw. unfold tx_wf in Hw. apply andb_true_iff in Hw. destruct Hw as [Hw1 Hw2].
  unfold asserts_ok, end_asserts.
  destruct (existsb (fo_hit k) (tx_ins t)) eqn:Eh.
  - apply existsb_exists in Eh. destruct Eh as [i [Hi Eh]]. pose proof (fo_hit_inv _ _ Eh) as Efo.
    assert (HiF : i = F) by (destruct (K_fo _ _ _ Hk) as [H | [H _]]; congruence). subst i.
    assert (Hm : mem_op F (tx_ins t) = true) by (apply mem_op_In; exact Hi). rewrite Hm in Hw1.
    apply andb_true_iff in Hw1. destruct Hw1 as [Hw1 Hw1c]. apply andb_true_iff in Hw1. destruct Hw1 as [Hw1a Hw1b].
    apply Nat.eqb_eq in Hw1a. destruct (tx_ins t) as [|j [|j' r]] eqn:Ei; try discriminate.
    destruct Hi as [-> | []]. cbn [input_asserts closing_prev]. rewrite Eh. cbn [andb]. rewrite N.eqb_refl. cbn [andb].
    apply N.leb_le in Hw1b. assert ((MAX_COMMITMENT_OUTPUTS <? tx_nout t) = false) as -> by (apply N.ltb_ge; exact Hw1b).
    cbn [negb andb]. rewrite Hw1c. cbn [andb]. exact Hw2.
  - assert (Hno : forall i, In i (tx_ins t) -> fo_hit k i = false).
    { intros i Hi. destruct (fo_hit k i) eqn:E; [|reflexivity]. exfalso.
      assert (existsb (fo_hit k) (tx_ins t) = true) by (apply existsb_exists; exists i; auto). congruence. }
    rewrite (input_asserts_nohit _ _ Hno), (closing_prev_nohit _ _ Hno). cbn [andb]. exact Hw2.
Qed.

Theorem steps_total b : forall S T k,
  KInv S T k -> txs_ok g S T b = true -> forallb (tx_wf g) b = true -> exists chs k', steps g k b chs k'.
Proof.
  induction b as [|t r IH]; intros S T k Hk Hok Hwf.
  - exists [], k. constructor.
  - cbn [txs_ok forallb] in *. apply andb_true_iff in Hok. destruct Hok as [H1 H2].
    apply andb_true_iff in Hwf. destruct Hwf as [W1 W2].
    destruct (tx_spec _ _ _ _ Hk (tx_ok_hyp _ _ _ H1)) as [kb (G1 & G2 & G3)].
    destruct (IH _ _ _ G3 H2 W2) as [chs [k' Hs]].
    exists (tx_changes g k t ++ chs), k'. econstructor; [eapply asserts_wf; eassumption | exact G1 | exact Hs].
Qed.

End Inv.
