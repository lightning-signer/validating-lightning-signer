(** The per-hash summaries of the payments model ([out_val] / [out_keys], [in_val] / [in_keys] of
    Model/Payments.v) are what the translated source computes: Gen/PaymentSummariesGen.v is
    regenerated on every run from EnforcementState::summarize_payments, ::payments_summary and
    ::incoming_payments_summary (policy/validator.rs).

    The model's commitment content is already a pair of per-hash maps; [abs_h] / [abs_c] build it
    from a source-level CommitmentInfo2 with [summ], the per-hash sum of an HTLC list, and
    [gen_summarize_is_summ] shows that [summ] is what summarize_payments computes when the HTLC
    values of the list add up within u64.  A map handed to `for (k, v) in m` is visited in the order
    [pord m] for an arbitrary permutation [pord]: the resulting look-ups do not depend on it. *)
From Coq Require Import String Permutation.
From VLS Require Import Base.Rust Gen.PaymentSummariesGen Proofs.RustFacts.
From VLS Require Gen.CommitmentPolicyGen.
From VLS Require Import Model.Payments Proofs.NodePaymentsGenProofs.

Module CP := CommitmentPolicyGen.

Definition upsert (f : N -> N) (m : list (N * N)) (k d : N) : list (N * N) :=
  match map_get m k with Some e => map_insert m k (f e) | None => map_insert m k d end.

Lemma entry_update_val (f : N -> N) m k d :
  map_entry_update m k (fun e => Val (f e)) (Some d) = Val (upsert f m k d).
Proof. unfold map_entry_update, upsert. destruct (map_get m k); reflexivity. Qed.

Lemma upsert_get f m k d x :
  map_get (upsert f m k d) x =
  if k =? x then Some (match map_get m k with Some e => f e | None => d end) else map_get m x.
Proof. unfold upsert. destruct (map_get m k); rewrite map_get_insert; reflexivity. Qed.

Lemma upsert_nodup f m k d : NoDup (map_keys m) -> NoDup (map_keys (upsert f m k d)).
Proof. intros ND. unfold upsert. destruct (map_get m k); apply keys_insert_nodup, ND. Qed.

(** [entry(k).and_modify(f)] without [or_insert] *)
Definition modify (f : N -> N) (m : list (N * N)) (k : N) : list (N * N) :=
  match map_get m k with Some e => map_insert m k (f e) | None => m end.

Lemma entry_update_none (f : N -> N) m k :
  map_entry_update m k (fun e => Val (f e)) None = Val (modify f m k).
Proof. unfold map_entry_update, modify. destruct (map_get m k); reflexivity. Qed.

Lemma modify_get f m k x :
  map_get (modify f m k) x = if k =? x then option_map f (map_get m x) else map_get m x.
Proof.
  unfold modify. destruct (N.eqb_spec k x) as [->|E].
  - destruct (map_get m x) eqn:G; [rewrite map_get_insert, N.eqb_refl | rewrite G]; reflexivity.
  - destruct (map_get m k); [rewrite map_get_insert, (proj2 (N.eqb_neq k x) E)|]; reflexivity.
Qed.

Lemma hhas_map_get m h : hhas m h = is_some_of (map_get m h).
Proof.
  induction m as [|[k v] r IH]; cbn [hhas map_get]; [reflexivity|].
  destruct (k =? h); [reflexivity | exact IH].
Qed.

Lemma fold_keyed (step : list (N * N) -> N * N -> list (N * N)) (g : option N -> N -> option N) :
  (forall m kv x, map_get (step m kv) x = if fst kv =? x then g (map_get m x) (snd kv) else map_get m x) ->
  forall l m x, NoDup (map_keys l) ->
  map_get (fold_left step l m) x = match map_get l x with Some v => g (map_get m x) v | None => map_get m x end.
Proof.
  intros Hs. induction l as [|[k v] r IH]; intros m x ND; cbn [fold_left map_get]; [reflexivity|].
  cbn [map_keys map fst] in ND. inversion ND as [|a b Hn ND']; subst.
  rewrite IH, Hs by exact ND'. cbn [fst snd].
  destruct (N.eqb_spec k x) as [->|_]; [rewrite (map_get_not_key r x Hn)|]; reflexivity.
Qed.

Lemma ord_get (pord : list (N * N) -> list (N * N)) cs x :
  (forall l, Permutation (pord l) l) -> NoDup (map_keys cs) ->
  NoDup (map_keys (pord cs)) /\ map_get (pord cs) x = map_get cs x.
Proof.
  intros Hord ND. split.
  - unfold map_keys. eapply Permutation_NoDup; [apply Permutation_map, Permutation_sym, Hord | exact ND].
  - apply map_get_perm; [apply Permutation_sym, Hord | exact ND].
Qed.

Definition olist {T A} (sel : T -> list A) (o : option T) : list A :=
  match o with Some t => sel t | None => [] end.

(** [if let Some(tx) = o { for h in sel(tx) { body } }] with a body that neither fails nor panics *)
Lemma opt_loop {S A T} (body : S -> A -> trap (result S)) (f : S -> A -> S) (sel : T -> list A) o m :
  (forall s a, body s a = Val (OkR (f s a))) ->
  match o with
  | None => Val (OkR m)
  | Some tx => s <-? fold_r body (sel tx) m ;; Val (OkR s)
  end = Val (OkR (fold_left f (olist sel o) m)).
Proof. intros Hb. destruct o; cbn [olist fold_left]; [rewrite (fold_r_plain body f _ Hb)|]; reflexivity. Qed.

(** one HTLC entered into a summary; [summ] folds it over the list ([summ] is written with [add_htlc]
    unfolded: [summ l = fold_left add_htlc l []] holds by reflexivity) *)
Definition add_htlc (m : list (N * N)) (h : CP.HTLCInfo2) : list (N * N) :=
  upsert (fun e => e + CP.HTLCInfo2_value_sat h) m (CP.HTLCInfo2_payment_hash h) (CP.HTLCInfo2_value_sat h).

Definition summ (l : list CP.HTLCInfo2) : list (N * N) :=
  fold_left (fun m h => upsert (fun e => e + CP.HTLCInfo2_value_sat h) m (CP.HTLCInfo2_payment_hash h) (CP.HTLCInfo2_value_sat h)) l [].

Lemma add_htlc_get0 m a x :
  get0 (add_htlc m a) x =
  if CP.HTLCInfo2_payment_hash a =? x then get0 m x + CP.HTLCInfo2_value_sat a else get0 m x.
Proof.
  unfold add_htlc, get0. rewrite upsert_get.
  destruct (N.eqb_spec (CP.HTLCInfo2_payment_hash a) x) as [->|_]; [destruct (map_get m x)|]; reflexivity.
Qed.

Definition hashes_of (l : list CP.HTLCInfo2) : list N := map CP.HTLCInfo2_payment_hash l.

Lemma fold_upsert_nodup {A} (g : A -> N -> N) (kf : A -> N) (df : A -> N) l : forall m,
  NoDup (map_keys m) ->
  NoDup (map_keys (fold_left (fun m a => upsert (g a) m (kf a) (df a)) l m)).
Proof. induction l as [|a r IH]; intros m ND; cbn [fold_left]; [exact ND | apply IH, upsert_nodup, ND]. Qed.

Lemma summ_nodup l : NoDup (map_keys (summ l)).
Proof. unfold summ. apply (fold_upsert_nodup (fun h e => e + CP.HTLCInfo2_value_sat h)). constructor. Qed.

Lemma fold_upsert_keys {A} (g : A -> N -> N) (kf : A -> N) (df : A -> N) l : forall m x,
  is_some_of (map_get (fold_left (fun m a => upsert (g a) m (kf a) (df a)) l m) x) =
  is_some_of (map_get m x) || existsb (N.eqb x) (map kf l).
Proof.
  induction l as [|a r IH]; intros m x; cbn [fold_left map existsb]; [rewrite orb_false_r; reflexivity|].
  rewrite IH, upsert_get. rewrite (N.eqb_sym x (kf a)).
  destruct (kf a =? x); cbn [is_some_of orb]; [rewrite orb_true_r; reflexivity | reflexivity].
Qed.

Lemma mem_keys_summ l x : existsb (N.eqb x) (hashes_of l) = is_some_of (map_get (summ l) x).
Proof.
  unfold summ. rewrite (fold_upsert_keys (fun h e => e + CP.HTLCInfo2_value_sat h) CP.HTLCInfo2_payment_hash CP.HTLCInfo2_value_sat).
  reflexivity.
Qed.

Lemma summ_keys l x : In x (map_keys (summ l)) <-> In x (hashes_of l).
Proof. rewrite key_in_iff, <- mem_keys_summ. apply existsb_in. Qed.

Definition total_of (l : list CP.HTLCInfo2) (x : N) : N :=
  sum_N (map CP.HTLCInfo2_value_sat (filter (fun h => CP.HTLCInfo2_payment_hash h =? x) l)).

Lemma fold_add_total l : forall m x, get0 (fold_left add_htlc l m) x = get0 m x + total_of l x.
Proof.
  unfold total_of. induction l as [|a r IH]; intros m x; cbn [fold_left filter]; [cbn [map sum_N]; lia|].
  rewrite IH, add_htlc_get0. destruct (CP.HTLCInfo2_payment_hash a =? x); cbn [map sum_N]; lia.
Qed.

Lemma summ_total l x : hget (summ l) x = total_of l x.
Proof. rewrite hget_get0. apply (fold_add_total l []). Qed.

Lemma gen_add_htlc prof m a :
  get0 m (CP.HTLCInfo2_payment_hash a) + CP.HTLCInfo2_value_sat a <= U64MAX ->
  map_entry_update m (CP.HTLCInfo2_payment_hash a) (fun e => add_p prof e (CP.HTLCInfo2_value_sat a))
    (Some (CP.HTLCInfo2_value_sat a)) = Val (add_htlc m a).
Proof.
  unfold get0, map_entry_update, add_htlc, upsert. intros H.
  destruct (map_get m (CP.HTLCInfo2_payment_hash a)); [rewrite add_p_ok by exact H|]; reflexivity.
Qed.

Lemma gen_summarize_from prof l : forall m,
  (forall x, get0 m x + sum_N (map CP.HTLCInfo2_value_sat l) <= U64MAX) ->
  fold_r (fun summary h =>
            summary <- map_entry_update summary (CP.HTLCInfo2_payment_hash h)
                         (fun e => add_p prof e (CP.HTLCInfo2_value_sat h)) (Some (CP.HTLCInfo2_value_sat h)) ;;
            Val (OkR summary)) l m =
  Val (OkR (fold_left add_htlc l m)).
Proof.
  induction l as [|a r IH]; intros m Hfit; cbn [fold_r fold_left map sum_N] in *; [reflexivity|].
  rewrite (gen_add_htlc prof m a) by (specialize (Hfit (CP.HTLCInfo2_payment_hash a)); lia). cbn [bindT bindR].
  apply IH. intros x. rewrite add_htlc_get0. specialize (Hfit x). destruct (_ =? x); lia.
Qed.

Definition list_fits (l : list CP.HTLCInfo2) : bool := sum_N (map CP.HTLCInfo2_value_sat l) <=? U64MAX.

Theorem gen_summarize_is_summ prof l :
  list_fits l = true -> gen_EnforcementState_summarize_payments prof l = Val (OkR (summ l)).
Proof.
  intros H. apply N.leb_le in H. unfold gen_EnforcementState_summarize_payments, summ. cbv beta zeta.
  rewrite (gen_summarize_from prof l []); [reflexivity | intros x; exact H].
Qed.

(** a holder commitment: the node offers [offered]; a counterparty commitment: the node offers
    what the counterparty [received] *)
Definition abs_h (ci : CP.CommitmentInfo2) : content :=
  mkCt (summ (CP.CommitmentInfo2_offered_htlcs ci)) (summ (CP.CommitmentInfo2_received_htlcs ci)).
Definition abs_c (ci : CP.CommitmentInfo2) : content :=
  mkCt (summ (CP.CommitmentInfo2_received_htlcs ci)) (summ (CP.CommitmentInfo2_offered_htlcs ci)).
Definition abs_pchan (ge : EnforcementState) : pchan :=
  mkPC (option_map abs_h (EnforcementState_current_holder_commit_info ge))
       (option_map abs_c (EnforcementState_current_counterparty_commit_info ge)) None.

Definition info_fits (o : option CP.CommitmentInfo2) : bool :=
  match o with
  | Some ci => list_fits (CP.CommitmentInfo2_offered_htlcs ci) && list_fits (CP.CommitmentInfo2_received_htlcs ci)
  | None => true
  end.

Lemma opt_or_map {A B} (f : A -> B) a b : opt_or (option_map f a) (option_map f b) = option_map f (opt_or_else a b).
Proof. destruct a; reflexivity. Qed.

Lemma info_fits_or a b : info_fits a = true -> info_fits b = true -> info_fits (opt_or_else a b) = true.
Proof. destruct a; intros; assumption. Qed.

Lemma fits_sel o : info_fits o = true ->
  list_fits (olist CP.CommitmentInfo2_offered_htlcs o) = true /\ list_fits (olist CP.CommitmentInfo2_received_htlcs o) = true.
Proof. destruct o; cbn [info_fits olist]; [apply andb_prop | split; reflexivity]. Qed.

Lemma oout_h o : oout (option_map abs_h o) = summ (olist CP.CommitmentInfo2_offered_htlcs o).
Proof. destruct o; reflexivity. Qed.
Lemma oout_c o : oout (option_map abs_c o) = summ (olist CP.CommitmentInfo2_received_htlcs o).
Proof. destruct o; reflexivity. Qed.
Lemma oin_h o : oin (option_map abs_h o) = summ (olist CP.CommitmentInfo2_received_htlcs o).
Proof. destruct o; reflexivity. Qed.
Lemma oin_c o : oin (option_map abs_c o) = summ (olist CP.CommitmentInfo2_offered_htlcs o).
Proof. destruct o; reflexivity. Qed.

(** the first two statements of either summary: the per-hash sums of the chosen list, or nothing *)
Lemma summarize_olist prof (sel : CP.CommitmentInfo2 -> list CP.HTLCInfo2) o :
  list_fits (olist sel o) = true ->
  (match option_map sel o with
   | Some h => gen_EnforcementState_summarize_payments prof h
   | None => Val (OkR [])
   end) = Val (OkR (summ (olist sel o))).
Proof. destruct o; cbn [option_map olist]; [apply gen_summarize_is_summ | reflexivity]. Qed.

(** [or_insert(0)] for every hash of a list: missing hashes appear with 0, nothing else moves *)
Definition touch_all (l : list CP.HTLCInfo2) (m : list (N * N)) : list (N * N) :=
  fold_left (fun m h => upsert (fun e => e) m (CP.HTLCInfo2_payment_hash h) 0) l m.

Lemma touch_loop {T} (sel : T -> list CP.HTLCInfo2) o m :
  match o with
  | None => Val (OkR m)
  | Some tx => s <-? fold_r (fun summary h =>
                 summary <- map_entry_update summary (CP.HTLCInfo2_payment_hash h) (fun e_ => Val e_) (Some 0) ;;
                 Val (OkR summary)) (sel tx) m ;; Val (OkR s)
  end = Val (OkR (touch_all (olist sel o) m)).
Proof. apply opt_loop. intros s a. rewrite (entry_update_val (fun e => e)). reflexivity. Qed.

Lemma touch_get0 l : forall m x, get0 (touch_all l m) x = get0 m x.
Proof.
  unfold touch_all. induction l as [|a r IH]; intros m x; cbn [fold_left]; [reflexivity|].
  rewrite IH. unfold get0. rewrite upsert_get.
  destruct (N.eqb_spec (CP.HTLCInfo2_payment_hash a) x) as [->|_]; [destruct (map_get m x)|]; reflexivity.
Qed.

Lemma touch_has l m x :
  is_some_of (map_get (touch_all l m) x) = is_some_of (map_get m x) || existsb (N.eqb x) (hashes_of l).
Proof. apply (fold_upsert_keys (fun _ e => e) CP.HTLCInfo2_payment_hash (fun _ => 0)). Qed.

(** payments_summary (outgoing: the larger of the two views) *)
Theorem gen_out_summary_is_model prof (pord : list (N * N) -> list (N * N)) ge nht nct :
  (forall l, Permutation (pord l) l) ->
  info_fits nht = true -> info_fits nct = true ->
  info_fits (EnforcementState_current_holder_commit_info ge) = true ->
  info_fits (EnforcementState_current_counterparty_commit_info ge) = true ->
  exists m,
    gen_EnforcementState_payments_summary prof pord ge nht nct = Val (OkR m) /\
    (forall h, hget m h = out_val (abs_pchan ge) (option_map abs_h nht) (option_map abs_c nct) h) /\
    (forall h, In h (map_keys m) <-> In h (out_keys (abs_pchan ge) (option_map abs_h nht) (option_map abs_c nct))).
Proof.
  intros Hord F1 F2 F3 F4.
  set (curh := EnforcementState_current_holder_commit_info ge) in *.
  set (curc := EnforcementState_current_counterparty_commit_info ge) in *.
  set (ho := opt_or_else nht curh). set (co := opt_or_else nct curc).
  set (hs := summ (olist CP.CommitmentInfo2_offered_htlcs ho)).
  set (cs := summ (olist CP.CommitmentInfo2_received_htlcs co)).
  set (step := fun m (kv : N * N) => upsert (fun e => N.max e (snd kv)) m (fst kv) (snd kv)).
  assert (Hm1 : forall x, map_get (fold_left step (pord cs) hs) x =
                          match map_get cs x with
                          | Some v => Some (match map_get hs x with Some e => N.max e v | None => v end)
                          | None => map_get hs x
                          end).
  { intros x. destruct (ord_get pord cs x Hord (summ_nodup _)) as [ND <-].
    apply (fold_keyed step (fun o v => Some (match o with Some e => N.max e v | None => v end))); [|exact ND].
    intros m [k v] y. unfold step. rewrite upsert_get. cbn [fst snd].
    destruct (N.eqb_spec k y) as [->|_]; reflexivity. }
  eexists. split; [|split]; [|intros h ..].
  - unfold gen_EnforcementState_payments_summary. cbv beta zeta. fold curh curc ho co.
    change (fun v_ : CP.CommitmentInfo2 => CP.CommitmentInfo2_offered_htlcs v_) with CP.CommitmentInfo2_offered_htlcs.
    change (fun v_ : CP.CommitmentInfo2 => CP.CommitmentInfo2_received_htlcs v_) with CP.CommitmentInfo2_received_htlcs.
    rewrite (summarize_olist prof CP.CommitmentInfo2_offered_htlcs ho)
      by (apply fits_sel, info_fits_or; assumption). cbn [bindR].
    rewrite (summarize_olist prof CP.CommitmentInfo2_received_htlcs co)
      by (apply fits_sel, info_fits_or; assumption). cbn [bindR].
    rewrite (fold_r_plain _ step)
      by (intros s [k v]; cbv beta iota; rewrite (entry_update_val (fun e => N.max e v)); reflexivity).
    cbn [bindR].
    rewrite touch_loop. cbn [bindR]. rewrite touch_loop. reflexivity.
  - rewrite hget_get0, !touch_get0. unfold get0 at 1. rewrite Hm1.
    unfold out_val, abs_pchan. cbn [hcur ccur]. fold curh curc. rewrite !opt_or_map, oout_h, oout_c, !hget_get0.
    fold ho co hs cs. unfold get0. destruct (map_get cs h), (map_get hs h); rewrite ?N.max_0_l, ?N.max_0_r; reflexivity.
  - rewrite key_in_iff, !touch_has, Hm1.
    unfold out_keys, abs_pchan. cbn [hcur ccur]. fold curh curc. rewrite !opt_or_map, !oout_h, !oout_c. fold ho co hs cs.
    change hkeys with (@map_keys N). rewrite !in_app_iff, !key_in_iff, !mem_keys_summ, !orb_true_iff.
    clear. destruct (map_get cs h), (map_get hs h); cbn [is_some_of]; intuition congruence.
Qed.

(** incoming_payments_summary (incoming: the smaller of the two views, on the hashes both have) *)
Theorem gen_in_summary_is_model prof (pord : list (N * N) -> list (N * N)) ge nht nct :
  (forall l, Permutation (pord l) l) ->
  info_fits nht = true -> info_fits nct = true ->
  info_fits (EnforcementState_current_holder_commit_info ge) = true ->
  info_fits (EnforcementState_current_counterparty_commit_info ge) = true ->
  exists m,
    gen_EnforcementState_incoming_payments_summary prof pord ge nht nct = Val (OkR m) /\
    (forall h, hget m h = in_val (abs_pchan ge) (option_map abs_h nht) (option_map abs_c nct) h) /\
    (forall h, In h (map_keys m) <-> In h (in_keys (abs_pchan ge) (option_map abs_h nht) (option_map abs_c nct))).
Proof.
  intros Hord F1 F2 F3 F4.
  set (curh := EnforcementState_current_holder_commit_info ge) in *.
  set (curc := EnforcementState_current_counterparty_commit_info ge) in *.
  set (ho := opt_or_else nht curh). set (co := opt_or_else nct curc).
  set (hs := summ (olist CP.CommitmentInfo2_received_htlcs ho)).
  set (cs := summ (olist CP.CommitmentInfo2_offered_htlcs co)).
  set (step := fun m (kv : N * N) => modify (fun e => N.min e (snd kv)) m (fst kv)).
  set (mr := map_retain hs (fun k => map_contains cs k)).
  assert (Hm1 : forall x, map_get (fold_left step (pord cs) mr) x =
                          match map_get cs x, map_get hs x with
                          | Some v, Some e => Some (N.min e v)
                          | _, _ => None
                          end).
  { intros x. destruct (ord_get pord cs x Hord (summ_nodup _)) as [ND E].
    rewrite (fold_keyed step (fun o v => option_map (fun e => N.min e v) o)), E; [| |exact ND].
    - unfold mr, map_retain. rewrite filter_key_get. unfold map_contains.
      destruct (map_get cs x), (map_get hs x); reflexivity.
    - intros m [k v] y. unfold step. rewrite modify_get. cbn [fst snd].
      destruct (N.eqb_spec k y) as [->|_]; reflexivity. }
  eexists. split; [|split]; [|intros h ..].
  - unfold gen_EnforcementState_incoming_payments_summary. cbv beta zeta. fold curh curc ho co.
    change (fun v_ : CP.CommitmentInfo2 => CP.CommitmentInfo2_offered_htlcs v_) with CP.CommitmentInfo2_offered_htlcs.
    change (fun v_ : CP.CommitmentInfo2 => CP.CommitmentInfo2_received_htlcs v_) with CP.CommitmentInfo2_received_htlcs.
    rewrite (summarize_olist prof CP.CommitmentInfo2_received_htlcs ho)
      by (apply fits_sel, info_fits_or; assumption). cbn [bindR].
    rewrite (summarize_olist prof CP.CommitmentInfo2_offered_htlcs co)
      by (apply fits_sel, info_fits_or; assumption). cbn [bindR].
    rewrite (fold_r_plain _ step)
      by (intros s [k v]; cbv beta iota; rewrite (entry_update_none (fun e => N.min e v)); reflexivity).
    cbn [bindR].
    rewrite touch_loop. cbn [bindR]. rewrite touch_loop. reflexivity.
  - fold hs cs mr. rewrite hget_get0, !touch_get0. unfold get0 at 1. rewrite Hm1.
    unfold in_val, abs_pchan. cbn [hcur ccur]. fold curh curc. rewrite !opt_or_map, oin_h, oin_c. cbv zeta.
    rewrite !hhas_map_get, !hget_get0. fold ho co hs cs. unfold get0.
    destruct (map_get cs h), (map_get hs h); reflexivity.
  - fold hs cs mr. rewrite key_in_iff, !touch_has, Hm1.
    unfold in_keys, abs_pchan. cbn [hcur ccur]. fold curh curc. rewrite !opt_or_map, !oin_h, !oin_c. fold ho co hs cs.
    change hkeys with (@map_keys N). rewrite !in_app_iff, filter_In, !key_in_iff, hhas_map_get, !mem_keys_summ, !orb_true_iff.
    clear. destruct (map_get cs h), (map_get hs h); cbn [is_some_of]; intuition congruence.
Qed.
