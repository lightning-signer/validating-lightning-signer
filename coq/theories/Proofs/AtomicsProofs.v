(** C20 — values handed out by an atomic read-modify-write counter are pairwise distinct under
    every interleaving. *)
From VLS Require Import Model.Atomics.

Lemma aupd_Forall (P : athread -> Prop) (ts : list athread) (n : nat) (t' : athread) :
  Forall P ts -> P t' -> Forall P (aupd ts n t').
Proof.
  revert n. induction ts as [|x ts IH]; intros [|n] H Ht; cbn; try constructor; inversion H; subst; auto.
Qed.

Lemma no_store_concat ps : Forall (fun p => no_store p = true) ps -> no_store (concat ps) = true.
Proof.
  induction 1 as [|p ps Hp _ IH]; [reflexivity|]. cbn [concat]. unfold no_store in *.
  rewrite forallb_app, Hp, IH. reflexivity.
Qed.

Definition ainv (s : astate) : Prop :=
  NoDup (handed s) /\ Forall (fun v => v < cnt s) (handed s) /\
  Forall (fun t => no_store (aprog t) = true) (thr s).

Lemma astep_inv (s : astate) (n : nat) (s' : astate) : ainv s -> astep s n = Some s' -> ainv s'.
Proof.
  intros [Hn [Hl Hp]] H. unfold astep in H.
  destruct (nth_error (thr s) n) as [t|] eqn:E; [|discriminate].
  assert (Pt : no_store (aprog t) = true).
  { rewrite Forall_forall in Hp. apply Hp. eapply nth_error_In. exact E. }
  destruct (aprog t) as [|[| |] r] eqn:A; try discriminate.  (* St: excluded by [Pt] *)
  - inversion H. subst s'. unfold ainv. cbn [handed cnt thr]. repeat split.
    + constructor; [|exact Hn]. intros I. rewrite Forall_forall in Hl. specialize (Hl _ I). lia.
    + constructor; [lia|]. eapply Forall_impl; [|exact Hl]. cbn. intros. lia.
    + apply aupd_Forall; [exact Hp|]. cbn [aprog]. cbn [no_store forallb] in Pt. exact Pt.
  - inversion H. subst s'. unfold ainv. cbn [handed cnt thr]. repeat split; try assumption.
    apply aupd_Forall; [exact Hp|]. cbn [aprog]. cbn [no_store forallb] in Pt. exact Pt.
Qed.

Lemma arun_inv (sched : list nat) : forall s s', ainv s -> arun s sched = Some s' -> ainv s'.
Proof.
  induction sched as [|n r IH]; intros s s' Hi H; cbn [arun] in H.
  - inversion H. subst. exact Hi.
  - destruct (astep s n) as [s1|] eqn:E; [|discriminate].
    eapply IH; [|exact H]. eapply astep_inv; eassumption.
Qed.

Theorem rmw_values_distinct (c0 : N) (ps : list (list aop)) :
  Forall (fun p => no_store p = true) ps ->
  forall sched s', arun (ainit c0 ps) sched = Some s' ->
    NoDup (handed s') /\ Forall (fun v => v < cnt s') (handed s').
Proof.
  intros Hps sched s' H.
  assert (I : ainv (ainit c0 ps)).
  { unfold ainv, ainit. cbn [handed cnt thr]. repeat split; try constructor.
    apply Forall_forall. intros t Ht. apply in_map_iff in Ht. destruct Ht as [p [<- Hp]].
    rewrite Forall_forall in Hps. cbn [aprog]. apply Hps. exact Hp. }
  destruct (arun_inv sched _ _ I H) as [A [B _]]. split; assumption.
Qed.
