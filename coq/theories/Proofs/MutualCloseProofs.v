(** Proofs about Model/MutualClose.v: what an accepted cooperative close implies, for every
    filter (per tag) and for the non-permissive one, at the validator and at both channel
    entry points; the canonical closing transaction; the fee-rate estimator. *)
From VLS Require Import Base.U64 Base.Eqb Model.MutualClose Proofs.ListSort.
From VLS Require Proofs.CommitmentPolicyProofs.
From Coq Require Import ZifyBool ZifyN ZifyNat Permutation.

Lemma andthen_ok a b : andthen a b = Ok <-> a = Ok /\ b = Ok.
Proof.
  destruct a; cbn [andthen]; split; intros H; try discriminate; try (destruct H; discriminate); tauto.
Qed.

Lemma perr_ok_iff warn t : perr warn t = Ok <-> warn t = true.
Proof. unfold perr. destruct (warn t); split; (reflexivity || discriminate). Qed.

Lemma check_ok_iff warn c t : check warn c t = Ok <-> (warn t = false -> c = false).
Proof. unfold check, perr. destruct c, (warn t); intuition congruence. Qed.

Lemma check_not_panic warn c t : check warn c t <> Panic.
Proof. unfold check, perr. destruct c; [destruct (warn t)|]; discriminate. Qed.

Lemma filter_no_warn_rules rules t :
  Forall (fun r => r_warn r = false) rules -> filter_warn rules t = false.
Proof.
  induction 1 as [|r rs Hr _ IH]; cbn [filter_warn]; [reflexivity|].
  destruct (rule_matches r t); assumption.
Qed.

Lemma filter_warn_explicit rules t :
  filter_warn rules t = true ->
  exists pre r post, rules = pre ++ r :: post /\ rule_matches r t = true /\ r_warn r = true /\
                     Forall (fun q => rule_matches q t = false) pre.
Proof.
  induction rules as [|r rs IH]; cbn [filter_warn]; [discriminate|].
  destruct (rule_matches r t) eqn:Hm.
  - intros Hw. exists [], r, rs. repeat split; auto.
  - intros H. destruct (IH H) as (pre & r' & post & -> & Hm' & Hw' & Hpre).
    exists (r :: pre), r', post. repeat split; auto.
Qed.

Lemma bytes_eqb_eq a b : bytes_eqb a b = true <-> a = b.
Proof. apply list_eqb_ok. intros x y. apply N.eqb_eq. Qed.

Lemma outpoint_eqb_eq a b : outpoint_eqb a b = true <-> a = b.
Proof.
  unfold outpoint_eqb. destruct a as [t1 v1], b as [t2 v2]; cbn [op_txid op_vout].
  rewrite andb_true_iff, !N.eqb_eq. split.
  - intros [-> ->]. reflexivity.
  - intros H. inversion H. auto.
Qed.

Lemma txin_eqb_eq a b : txin_eqb a b = true <-> a = b.
Proof.
  unfold txin_eqb. destruct a as [p1 s1 q1 w1], b as [p2 s2 q2 w2];
    cbn [in_prev in_script_sig in_sequence in_witness].
  rewrite !andb_true_iff, outpoint_eqb_eq, bytes_eqb_eq, N.eqb_eq.
  rewrite (list_eqb_ok bytes_eqb bytes_eqb_eq). split.
  - intros [[[-> ->] ->] ->]. reflexivity.
  - intros H. inversion H. auto.
Qed.

Lemma txout_eqb_eq a b : txout_eqb a b = true <-> a = b.
Proof.
  unfold txout_eqb. destruct a as [v1 s1], b as [v2 s2]; cbn [o_value o_script].
  rewrite andb_true_iff, N.eqb_eq, bytes_eqb_eq. split.
  - intros [-> ->]. reflexivity.
  - intros H. inversion H. auto.
Qed.

Lemma tx_eqb_eq a b : tx_eqb a b = true <-> a = b.
Proof.
  unfold tx_eqb. destruct a as [v1 l1 i1 o1], b as [v2 l2 i2 o2];
    cbn [tx_version tx_locktime tx_ins tx_outs].
  rewrite !andb_true_iff, !N.eqb_eq.
  rewrite (list_eqb_ok txin_eqb txin_eqb_eq), (list_eqb_ok txout_eqb txout_eqb_eq). split.
  - intros [[[-> ->] ->] ->]. reflexivity.
  - intros H. inversion H. auto.
Qed.

Lemma opt_script_eqb_eq a b : opt_script_eqb a b = true -> a = b.
Proof.
  destruct a as [x|], b as [y|]; cbn [opt_script_eqb]; try discriminate; try reflexivity.
  intros H. apply bytes_eqb_eq in H. subst. reflexivity.
Qed.

Lemma out_cmp_ok : cmp_ok out_cmp.
Proof.
  apply (cmp_then_ok o_value o_script N.compare bytes_cmp);
    [|exact N_cmp_ok|exact (lex_cmp_ok N.compare N_cmp_ok)].
  intros [v1 s1] [v2 s2]. cbn [o_value o_script]. intros -> ->. reflexivity.
Qed.

Lemma out_cmp_eq a b : out_cmp a b = Eq -> a = b.
Proof. apply (cmp_eq out_cmp_ok). Qed.

Lemma sort_outs_perm l : Permutation (sort_outs l) l.
Proof.
  destruct l as [|a [|b [|c r]]]; cbn [sort_outs]; try reflexivity.
  destruct (out_cmp a b); (reflexivity || apply perm_swap).
Qed.

Lemma in_positive o v scr : In o (if 0 <? v then [mkOut v scr] else []) <-> o = mkOut v scr /\ 0 < v.
Proof. destruct (N.ltb_spec 0 v); cbn [In]; intuition (auto; lia). Qed.

Lemma canon_outs_in vh vc sh sc o :
  In o (canon_outs vh vc sh sc) <->
  (o = mkOut vc sc /\ 0 < vc) \/ (o = mkOut vh sh /\ 0 < vh).
Proof.
  unfold canon_outs. rewrite <- !in_positive, <- in_app_iff.
  split; apply Permutation_in; [|symmetry]; apply sort_outs_perm.
Qed.

Lemma canon_outs_length vh vc sh sc :
  length (canon_outs vh vc sh sc) =
  Nat.add (if 0 <? vc then 1%nat else 0%nat) (if 0 <? vh then 1%nat else 0%nat).
Proof.
  unfold canon_outs. rewrite (Permutation_length (sort_outs_perm _)), app_length.
  destruct (0 <? vc), (0 <? vh); reflexivity.
Qed.

Lemma canon_outs_sorted vh vc sh sc a b :
  canon_outs vh vc sh sc = [a; b] -> out_cmp a b <> Gt.
Proof.
  unfold canon_outs. destruct (0 <? vc); destruct (0 <? vh); cbn [app sort_outs]; try discriminate.
  destruct (out_cmp (mkOut vc sc) (mkOut vh sh)) eqn:E; intros H; inversion H; subst; try congruence.
  rewrite (cmp_opp out_cmp_ok), E. cbn [CompOpp]. discriminate.
Qed.

Lemma canon_close_shape s vh vc sh sc :
  tx_version (canon_close s vh vc sh sc) = 2 /\ tx_locktime (canon_close s vh vc sh sc) = 0 /\
  tx_ins (canon_close s vh vc sh sc) = [mkIn (funding s) [] SEQUENCE_MAX []] /\
  tx_outs (canon_close s vh vc sh sc) = canon_outs vh vc sh sc.
Proof. repeat split. Qed.

Lemma close_weight_pos outs : 0 < close_weight outs.
Proof. unfold close_weight, CLOSE_WITNESS_WEIGHT. lia. Qed.

(** [estimate_feerate_per_kw] and [bolt3_fee] of Model/MutualClose.v are constants of their own with
    the bodies of their namesakes in Model/CommitmentPolicy.v, so the lemmas proved there apply as
    they stand (by conversion) *)
Lemma bolt3_window_iff lo hi w fee :
  (bolt3_fee lo w <= fee /\ fee < bolt3_fee hi w) <->
  (lo * w <= fee * 1000 + 999 /\ fee * 1000 + 999 < hi * w).
Proof. exact (CommitmentPolicyProofs.bolt3_window_iff lo hi w fee). Qed.

Section ValidatorFacts.
  Variable warn : tag -> bool.
  Variable can_spend : path -> script -> option bool.
  Variable allowlisted : script -> path -> bool.
  Variable pol : policy.

  Lemma validate_fee_ok si so w :
    validate_fee warn pol si so w = Ok <->
    so <= si /\ w <> 0 /\
    (warn T_fee_range = false -> min_feerate pol <= estimate_feerate_per_kw (si - so) w <= max_feerate pol).
  Proof.
    unfold validate_fee, sub_checked.
    destruct (N.leb_spec so si); [|intuition (discriminate || lia)].
    destruct (N.eqb_spec w 0); [intuition (discriminate || lia)|].
    cbv zeta. rewrite andthen_ok, !check_ok_iff. intuition lia.
  Qed.

  Lemma outside_epsilon_within a b :
    outside_epsilon pol a b = false -> within (epsilon pol) a b.
  Proof. unfold outside_epsilon, within. destruct (b <? a) eqn:E; intros H; lia. Qed.

  Lemma value_checks_ok s hi ci a :
    value_checks warn pol s hi ci (a_vh a) (a_vc a) = Ok -> warn T_value_matches = false ->
    NonFeePayerWithinEps pol s hi ci a.
  Proof.
    unfold value_checks, NonFeePayerWithinEps. intros H Hw.
    destruct (is_outbound s); rewrite andthen_ok, !check_ok_iff in H; destruct H as [H1 H2];
      split; apply outside_epsilon_within; auto.
  Qed.

  Lemma script_check_ok sh p :
    script_check warn can_spend allowlisted sh p = Ok -> warn T_destination = false ->
    forall scr, sh = Some scr -> Owned can_spend allowlisted p scr.
  Proof.
    unfold script_check, Owned. intros H Hw scr ->.
    destruct (can_spend p scr) as [[|]|]; [left; reflexivity | | discriminate].
    rewrite check_ok_iff in H. specialize (H Hw). right. destruct (allowlisted scr p); [reflexivity|discriminate].
  Qed.

  Lemma validate_inv s e a :
    validate_mutual_close warn can_spend allowlisted pol s e a = Ok ->
    exists hi ci so,
      holder_info e = Some hi /\ cp_info e = Some ci /\
      check warn ((0 <? a_vh a) && is_none (a_sh a)) T_destination = Ok /\
      check warn ((0 <? a_vc a) && is_none (a_sc a)) T_destination = Ok /\
      check warn (negb (is_none (upfront s)) && (0 <? a_vh a) &&
                  negb (opt_script_eqb (a_sh a) (upfront s))) T_destination = Ok /\
      check warn (negb (htlcs_empty hi) || negb (htlcs_empty ci)) T_no_htlcs = Ok /\
      add_checked (a_vh a) (a_vc a) = Some so /\
      validate_fee warn pol (channel_value s) so (close_weight (tx_outs (close_of s a))) = Ok /\
      value_checks warn pol s hi ci (a_vh a) (a_vc a) = Ok /\
      script_check warn can_spend allowlisted (a_sh a) (a_path a) = Ok.
  Proof.
    unfold validate_mutual_close. intros H.
    destruct (holder_info e) as [hi|]; [|discriminate].
    destruct (cp_info e) as [ci|]; [|discriminate].
    rewrite !andthen_ok in H. destruct H as (H1 & H2 & H3 & H4 & H).
    destruct (add_checked (a_vh a) (a_vc a)) as [so|]; [|discriminate].
    rewrite !andthen_ok in H. exists hi, ci, so. tauto.
  Qed.

  (** per tag, for an arbitrary filter: a conjunct can only be missing when its own tag is
      downgraded; the outputs never exceed the funding and both commitments are present
      whatever the filter says *)
  Lemma validate_facts s e a :
    validate_mutual_close warn can_spend allowlisted pol s e a = Ok ->
    exists hi ci,
      holder_info e = Some hi /\ cp_info e = Some ci /\
      a_vh a + a_vc a <= channel_value s /\
      (warn T_no_htlcs = false -> NoHtlcs hi ci) /\
      (warn T_fee_range = false -> max_feerate pol < U32MAX -> FeeInRange pol s a) /\
      (warn T_value_matches = false -> NonFeePayerWithinEps pol s hi ci a) /\
      (warn T_destination = false -> HolderDestinationOk can_spend allowlisted s a).
  Proof.
    intros H. apply validate_inv in H.
    destruct H as (hi & ci & so & Hh & Hc & H1 & H2 & H3 & H4 & Hso & H5 & H6 & H7).
    unfold add_checked in Hso. destruct (a_vh a + a_vc a <=? U64MAX); [injection Hso as <-|discriminate].
    apply validate_fee_ok in H5. destruct H5 as (Hle & Hw0 & Hfee).
    exists hi, ci. split; [assumption|]. split; [assumption|]. split; [assumption|].
    split; [|split; [|split]].
    - intros Hw. rewrite check_ok_iff in H4. specialize (H4 Hw). unfold htlcs_empty in H4. unfold NoHtlcs.
      clear - H4. lia.
    - intros Hw Hm. unfold FeeInRange. cbv zeta. split; [exact Hle|].
      apply bolt3_window_iff, (CommitmentPolicyProofs.estimate_window _ _ _ _ Hw0 Hm (Hfee Hw)).
    - intros Hw. apply value_checks_ok; assumption.
    - intros Hw. unfold HolderDestinationOk. split.
      + intros Hpos. apply N.ltb_lt in Hpos.
        rewrite check_ok_iff in H1, H3. specialize (H1 Hw). specialize (H3 Hw). rewrite Hpos in H1, H3.
        destruct (a_sh a) as [scr|] eqn:Esh; [|discriminate H1].
        exists scr. split; [reflexivity|]. split.
        * eapply script_check_ok; eauto.
        * intros u Hu. rewrite Hu in H3. cbn [is_none negb andb] in H3.
          apply negb_false_iff, opt_script_eqb_eq in H3. congruence.
      + intros Hpos. apply N.ltb_lt in Hpos. rewrite check_ok_iff in H2. specialize (H2 Hw).
        rewrite Hpos in H2. destruct (a_sc a); [discriminate|discriminate H2].
  Qed.

  Lemma validate_strict s e a :
    (forall t, warn t = false) -> max_feerate pol < U32MAX ->
    validate_mutual_close warn can_spend allowlisted pol s e a = Ok ->
    CloseOk can_spend allowlisted pol s e a.
  Proof.
    intros Hw Hm H. apply validate_facts in H.
    destruct H as (hi & ci & Hh & Hc & _ & A & B & C & D).
    exists hi, ci.
    split; [assumption|]. split; [assumption|]. split; [apply A, Hw|].
    split; [apply B; [apply Hw | assumption]|]. split; [apply C, Hw | apply D, Hw].
  Qed.

  Lemma candidates_assignment e t paths l u :
    candidates pol e (tx_outs t) paths = Some (l, u) ->
    Assignment t paths l /\ Assignment t paths u.
  Proof.
    unfold candidates, Assignment. destruct (tx_outs t) as [|o0 [|o1 [|o2 r]]]; try discriminate.
    - destruct (opt_gt _ _); intros H; inversion H; subst; auto.
    - destruct (opt_gt _ _); intros H; inversion H; subst; auto.
  Qed.

  (** an accepted phase-1 request: the arguments decided on are one of the two assignments of
      the request's outputs (each output with its own path), they pass validation, and -
      unless the recomposition tag is downgraded - the canonical closing transaction built
      from them IS the request's transaction *)
  Lemma decode_facts s e t paths a :
    decode_and_validate warn can_spend allowlisted pol s e t paths = DOk a ->
    length paths = length (tx_outs t) /\
    Assignment t paths a /\
    validate_mutual_close warn can_spend allowlisted pol s e a = Ok /\
    (warn T_format_standard = false -> close_of s a = t).
  Proof.
    unfold decode_and_validate.
    destruct (2 <? length (tx_outs t))%nat; [discriminate|].
    destruct (length paths =? length (tx_outs t))%nat eqn:El; cbn [negb]; [|discriminate].
    apply Nat.eqb_eq in El.
    destruct (check warn (is_none (holder_info e)) T_other); try discriminate.
    destruct (check warn (is_none (cp_info e)) T_other); try discriminate.
    destruct (candidates pol e (tx_outs t) paths) as [[l u]|] eqn:Ec; [|discriminate].
    apply candidates_assignment in Ec. destruct Ec as [Al Au].
    assert (Hfin : forall g,
      (if tx_eqb (close_of s g) t then DOk g
       else match perr warn T_format_standard with
            | Ok => DOk g | Err t3 => DErr t3 | Panic => DPanic end) = DOk a ->
      g = a /\ (warn T_format_standard = false -> close_of s a = t)).
    { intros g Hg. destruct (tx_eqb (close_of s g) t) eqn:Et.
      - inversion Hg; subst. split; [reflexivity|]. intros _. apply tx_eqb_eq. exact Et.
      - unfold perr in Hg. destruct (warn T_format_standard) eqn:Ew; [|discriminate].
        inversion Hg; subst. split; [reflexivity|]. discriminate. }
    destruct (validate_mutual_close warn can_spend allowlisted pol s e l) eqn:Vl.
    - intros H. apply Hfin in H. destruct H as [-> Hr]. auto.
    - destruct (validate_mutual_close warn can_spend allowlisted pol s e u) eqn:Vu; try discriminate.
      intros H. apply Hfin in H. destruct H as [-> Hr]. auto.
    - discriminate.
  Qed.
End ValidatorFacts.

Section ChannelFacts.
  Variables (keyT msgT sigT : Type).
  Variable sighash : tx -> N -> msgT.
  Variable sign : keyT -> msgT -> sigT.
  Variable fk : keyT.
  Variable warn : tag -> bool.
  Variable can_spend : path -> script -> option bool.
  Variable allowlisted : script -> path -> bool.
  Variable pol : policy.

  Notation phase2 := (sign_close_phase2 keyT msgT sigT sighash sign fk warn can_spend allowlisted pol).
  Notation phase1 := (sign_close_phase1 keyT msgT sigT sighash sign fk warn can_spend allowlisted pol).

  Lemma sign_and_close_signed pok s c t c' sg :
    sign_and_close keyT msgT sigT sighash sign fk pok s c t = (c', Signed sg) ->
    pok = true /\ sg = sign fk (sighash t (channel_value s)) /\
    c' = mkChan (set_closed (c_mem c)) (set_closed (c_mem c)).
  Proof.
    unfold sign_and_close. destruct pok; intros H; inversion H; subst; auto.
  Qed.

  Lemma phase2_signed pok s c a c' sg :
    phase2 pok s c a = (c', Signed sg) ->
    validate_mutual_close warn can_spend allowlisted pol s (c_mem c) a = Ok /\
    pok = true /\ sg = sign fk (sighash (close_of s a) (channel_value s)) /\
    c' = mkChan (set_closed (c_mem c)) (set_closed (c_mem c)).
  Proof.
    unfold sign_close_phase2.
    destruct (validate_mutual_close warn can_spend allowlisted pol s (c_mem c) a) eqn:V;
      try (intros H; inversion H; fail).
    intros H. apply sign_and_close_signed in H. tauto.
  Qed.

  Lemma phase1_signed pok s c t paths c' sg :
    phase1 pok s c t paths = (c', Signed sg) ->
    exists a,
      decode_and_validate warn can_spend allowlisted pol s (c_mem c) t paths = DOk a /\
      pok = true /\ sg = sign fk (sighash (close_of s a) (channel_value s)) /\
      c' = mkChan (set_closed (c_mem c)) (set_closed (c_mem c)).
  Proof.
    unfold sign_close_phase1.
    destruct (negb (length paths =? length (tx_outs t))%nat); [intros H; inversion H|].
    destruct (decode_and_validate warn can_spend allowlisted pol s (c_mem c) t paths) as [a|tg|] eqn:D;
      try (intros H; inversion H; fail).
    intros H. apply sign_and_close_signed in H. exists a. tauto.
  Qed.

  (** without a signature the store is left as it was; the memory changes only when the
      store refused the write (the closed flag was already set then) *)
  Lemma sign_and_close_unsigned pok s c t c' o :
    sign_and_close keyT msgT sigT sighash sign fk pok s c t = (c', o) -> (forall sg, o <> Signed sg) ->
    c_disk c' = c_disk c /\ (o <> Refused R_internal -> c' = c).
  Proof.
    unfold sign_and_close. destruct pok; intros [= <- <-] Hn.
    - destruct (Hn _ eq_refl).
    - split; [reflexivity|]. intros Hx. destruct (Hx eq_refl).
  Qed.

  Lemma phase2_unsigned pok s c a c' o :
    phase2 pok s c a = (c', o) -> (forall sg, o <> Signed sg) ->
    c_disk c' = c_disk c /\ (o <> Refused R_internal -> c' = c).
  Proof.
    unfold sign_close_phase2.
    destruct (validate_mutual_close warn can_spend allowlisted pol s (c_mem c) a);
      [apply sign_and_close_unsigned|intros [= <- <-]; auto..].
  Qed.

  Lemma phase1_unsigned pok s c t paths c' o :
    phase1 pok s c t paths = (c', o) -> (forall sg, o <> Signed sg) ->
    c_disk c' = c_disk c /\ (o <> Refused R_internal -> c' = c).
  Proof.
    unfold sign_close_phase1.
    destruct (negb (length paths =? length (tx_outs t))%nat); [intros [= <- <-]; auto|].
    destruct (decode_and_validate warn can_spend allowlisted pol s (c_mem c) t paths);
      [apply sign_and_close_unsigned|intros [= <- <-]; auto..].
  Qed.
End ChannelFacts.
