(** The counterparty side of the enforcement state machine (Model/Enforcement.v): window of
    unrevoked commitments, revocations verified against the signed point, re-signing only for
    identical point and content. *)
From VLS Require Import Base.U64 Model.Enforcement Proofs.EnforcementProofs.
From Coq Require Import ZifyBool ZifyN ZifyNat.

Local Open Scope N_scope.

Definition cpf (e : estate) := (next_c e, next_r e, cur_pt e, prev_pt e, cur_c e).

(** the requests of the holder side leave the counterparty side alone, and conversely *)
Lemma acc_frame warn prof e o e' r :
  acc warn prof e o e' r ->
  if match o with SignCp _ _ _ _ | ValidateRevocation _ _ _ _ => true | _ => false end
  then hpf e' = hpf e /\ o_secret r = None /\ o_hsig r = None
  else cpf e' = cpf e /\ o_cpsig r = None.
Proof.
  intros H. induction H; try exact IHacc; try (repeat split; reflexivity).
  - split; [eapply set_cp_commit_hpf; eassumption | split; reflexivity].
  - split; [eapply set_cp_revoke_hpf; eassumption | split; reflexivity].
Qed.

Record CI (nc nr : N) (cpt ppt : option point) (cc : option content)
          (cps : list (N * point * content)) (cpr : list (N * point)) : Prop := {
  c_win : nc <= nr + 2;
  c_rev : nr <= nc;
  c_sig : forall n p c, In (n, p, c) cps ->
          n < nc /\ (n + 1 = nc -> cpt = Some p /\ cc = Some c) /\ (n + 2 = nc -> ppt = Some p);
  c_fun : forall n p1 c1 p2 c2, In (n, p1, c1) cps -> In (n, p2, c2) cps -> p1 = p2 /\ c1 = c2;
  c_cur : forall p, cpt = Some p -> 1 <= nc /\ exists c, In (nc - 1, p, c) cps;
  c_prev : forall p, ppt = Some p -> 2 <= nc /\ exists c, In (nc - 2, p, c) cps;
  c_rvk : forall r p, In (r, p) cpr -> r < nr /\ exists c, In (r, p, c) cps;
  c_all : forall j, j < nr -> exists p, In (j, p) cpr
}.

Definition CIe (e : estate) cps cpr :=
  CI (next_c e) (next_r e) (cur_pt e) (prev_pt e) (cur_c e) cps cpr.

Lemma CI_init : CI 0 0 None None None [] [].
Proof.
  constructor; try lia; try (intros; contradiction); try (intros; discriminate).
Qed.

Lemma CI_sign_new nc nr cpt ppt cc cps cpr pt c :
  CI nc nr cpt ppt cc cps cpr -> nc <= nr + 1 ->
  CI (nc + 1) nr (Some pt) cpt (Some c) ((nc, pt, c) :: cps) cpr.
Proof.
  intros [A B C D E F G H] Hn.
  assert (Hlt : forall m p c0, In (m, p, c0) cps -> m < nc) by (intros m p c0 Hin; apply (C m p c0 Hin)).
  constructor.
  - clear - Hn. lia.
  - clear - B. lia.
  - intros m p c0 [Hin|Hin].
    + inversion Hin; subst. split; [clear; lia|]. split; [auto | intros Hm; clear - Hm; lia].
    + destruct (C m p c0 Hin) as [C1 [C2 C3]]. split; [clear - C1; lia|].
      split; [intros Hm; clear - C1 Hm; lia|]. intros Hm. apply C2. clear - Hm. lia.
  - intros m p1 c1 p2 c2 [H1|H1] [H2|H2].
    + inversion H1; inversion H2; subst; auto.
    + inversion H1; subst. apply Hlt in H2. clear - H2. lia.
    + inversion H2; subst. apply Hlt in H1. clear - H1. lia.
    + eapply D; eassumption.
  - intros p [= <-]. split; [clear; lia|]. exists c. left. rewrite N.add_sub. reflexivity.
  - intros p Hp. destruct (E p Hp) as [E1 [c0 E2]]. split; [clear - E1; lia|]. exists c0. right.
    replace (nc + 1 - 2) with (nc - 1) by (clear - E1; lia). exact E2.
  - intros r p Hin. destruct (G r p Hin) as [G1 [c0 G2]]. split; [exact G1|]. exists c0. right. exact G2.
  - exact H.
Qed.

Lemma CI_sign_retry nc nr cpt ppt cc cps cpr n pt c :
  CI nc nr cpt ppt cc cps cpr -> n + 1 = nc -> cpt = Some pt -> cc = Some c ->
  CI nc nr cpt ppt cc ((n, pt, c) :: cps) cpr.
Proof.
  intros [A B C D E F G H] Hn Hp Hc.
  assert (Hsame : forall p c0, In (n, p, c0) cps -> pt = p /\ c = c0).
  { intros p c0 Hin. destruct (C _ _ _ Hin) as [_ [C2 _]]. destruct (C2 Hn). split; congruence. }
  constructor; auto.
  - intros m p c0 [Hin|Hin]; [|auto].
    inversion Hin; subst. split; [clear; lia|]. split; [auto | intros Hm; clear - Hm; lia].
  - intros m p1 c1 p2 c2 [H1|H1] [H2|H2].
    + inversion H1; inversion H2; subst; auto.
    + inversion H1; subst. exact (Hsame _ _ H2).
    + inversion H2; subst. destruct (Hsame _ _ H1). split; congruence.
    + eapply D; eassumption.
  - intros p Hpp. destruct (E p Hpp) as [E1 [c0 E2]]. split; [exact E1|]. exists c0. right. exact E2.
  - intros p Hpp. destruct (F p Hpp) as [F1 [c0 F2]]. split; [exact F1|]. exists c0. right. exact F2.
  - intros r p Hin. destruct (G r p Hin) as [G1 [c0 G2]]. split; [exact G1|]. exists c0. right. exact G2.
Qed.

Lemma CI_revoke nc nr cpt ppt cc cps cpr r p :
  CI nc nr cpt ppt cc cps cpr -> (r = nr \/ r + 1 = nr) -> r + 2 = nc -> ppt = Some p ->
  CI nc (r + 1) cpt ppt cc cps ((r, p) :: cpr).
Proof.
  intros [A B C D E F G H] Hr Hn Hp. constructor; auto.
  - clear - Hn. lia.
  - clear - Hn. lia.
  - intros r0 p0 [Hin|Hin].
    + inversion Hin; subst. split; [clear; lia|]. destruct (F p0 eq_refl) as [_ [c0 F2]]. exists c0.
      rewrite N.add_sub in F2. exact F2.
    + destruct (G r0 p0 Hin) as [G1 G2]. split; [clear - G1 Hr; lia | exact G2].
  - intros j Hj. destruct (N.lt_ge_cases j nr) as [Hlt|Hge].
    + destruct (H j Hlt) as [p0 Hp0]. exists p0. right. exact Hp0.
    + exists p. left. f_equal. clear - Hj Hge Hr. lia.
Qed.

Lemma CIe_of_cpf e nc nr cpt ppt cc cps cpr :
  cpf e = (nc, nr, cpt, ppt, cc) -> CI nc nr cpt ppt cc cps cpr -> CIe e cps cpr.
Proof. unfold cpf, CIe. intros [= -> -> -> -> ->]. auto. Qed.

Lemma set_cp_commit_cpf e n pt c e' :
  set_cp_commit e n pt c = Some e' ->
  (n = next_c e + 1 -> cpf e' = (n, next_r e, Some pt, cur_pt e, Some c)) /\
  (n = next_c e -> cpf e' = cpf e).
Proof.
  unfold set_cp_commit. destruct (n =? 0); [discriminate|].
  split; intros ->; revert H.
  - rewrite N.eqb_refl, N.leb_refl. intros [= <-]. reflexivity.
  - replace (next_c e =? next_c e + 1) with false by lia.
    replace ((next_c e + 1 <? next_c e) || (next_c e <? next_c e)) with false by lia.
    replace (next_c e + 1 <=? next_c e) with false by lia. intros [= <-]. reflexivity.
Qed.

Lemma set_cp_revoke_cpf e n secs e' :
  set_cp_revoke e n secs = Some e' -> cpf e' = (next_c e, n, cur_pt e, prev_pt e, cur_c e).
Proof. unfold set_cp_revoke. destruct (n =? 0); [discriminate|]. intros [= <-]. reflexivity. Qed.

Section CP.
Variable warn : tag -> bool.
Variable prof : profile.
Hypothesis W5 : warn TPrevRevoked = false.
Hypothesis W6 : warn TRetrySame = false.
Hypothesis W4 : warn TOther = false.

Lemma opt_eqb_true a b : opt_eqb a b = true <-> a = Some b.
Proof. destruct a; cbn; [rewrite N.eqb_eq; split; congruence | split; discriminate]. Qed.

Lemma cp_commit_guard_true e num :
  cp_commit_guard warn e num = true <->
  num <> 0 /\ next_r e + (if num =? 1 then 1 else 2) <= num /\ (num = next_c e \/ num = next_c e + 1).
Proof. unfold cp_commit_guard, perr. rewrite W4, W5. destruct (num =? 1) eqn:E; lia. Qed.

Lemma cp_revoke_guard_true e num :
  cp_revoke_guard warn e num = true <->
  num <> 0 /\ next_c e <= num + 2 /\ num + 1 <= next_c e /\ (num = next_r e \/ num = next_r e + 1).
Proof. unfold cp_revoke_guard, perr. rewrite W4, W5. lia. Qed.

Lemma validate_cp_state_true e n n1 n2 pt c :
  validate_cp_state warn e n n1 n2 pt c = true ->
  n <= next_r e + 1 /\ (n1 = next_c e -> cur_pt e = Some pt /\ cur_c e = Some c).
Proof.
  unfold validate_cp_state, prev_info_for, perr. rewrite W5, W6. cbn [negb].
  rewrite !andb_true_r, !orb_false_r. intros H. apply andb_prop in H. destruct H as [H1 H2].
  split; [lia|]. intros ->. rewrite N.eqb_refl in H2. apply andb_prop in H2.
  rewrite !opt_eqb_true in H2. exact H2.
Qed.

Lemma revocation_checks_true e r r1 r2 p :
  revocation_checks warn e r r1 r2 p = true ->
  (r = next_r e \/ r1 = next_r e) /\ prev_point_for e r1 r2 = Some p.
Proof.
  unfold revocation_checks, perr. rewrite W5. cbn [negb]. rewrite !andb_true_r, orb_false_r.
  intros H. apply andb_prop in H. rewrite opt_eqb_true in H. split; [lia | tauto].
Qed.

Lemma acc_cpost e o e' r cps cpr :
  wf_op o -> acc warn prof e o e' r -> CIe e cps cpr ->
  CIe e' (opt_cons (o_cpsig r) cps)
      (match o with ValidateRevocation r p _ _ => (r, p) :: cpr | _ => cpr end) /\
  forall n p c, o_cpsig r = Some (n, p, c) -> n <= next_r e + 1 /\ exists pl, o = SignCp n p c pl.
Proof.
  intros Hwf H HC. pose proof (acc_frame _ _ _ _ _ _ H) as Hf.
  destruct H as [| | | | | | | | | | | | | |n pt c n1 n2 e' Ea Ev Eg Es|r p sec chn r1 r2 secs e' Ea E2 Ec Eg Es| | | | ];
    cbn [wf_op] in Hwf; cbv iota in Hf;
    try (destruct Hf as [Hf ->]; split; [exact (CIe_of_cpf _ _ _ _ _ _ _ _ Hf HC) | discriminate]);
    cbn [o_cpsig ok0 opt_cons].
  - apply validate_cp_state_true in Ev. apply cp_commit_guard_true in Eg.
    destruct Ev as [Hw Hret], Eg as [H0 [_ Hnum]]. apply set_cp_commit_cpf in Es. destruct Es as [Enew Esame].
    assert (Hn1 : n1 = n + 1) by (apply (add_p_exact _ _ _ _ Ea Hwf); clear - H0; lia). subst n1.
    split; [|intros ? ? ? [= <- <- <-]; eauto]. destruct Hnum as [Hr|Hr].
    + destruct (Hret Hr) as [Hp Hc]. eapply CIe_of_cpf; [exact (Esame Hr)|].
      exact (CI_sign_retry _ _ _ _ _ _ _ _ _ _ HC Hr Hp Hc).
    + eapply CIe_of_cpf; [exact (Enew Hr)|]. assert (En : n = next_c e) by (clear - Hr; lia). rewrite En in *.
      exact (CI_sign_new _ _ _ _ _ _ _ _ _ HC Hw).
  - split; [|discriminate].
    apply revocation_checks_true in Ec. apply cp_revoke_guard_true in Eg.
    destruct Ec as [Hnum Hpt], Eg as [H0 [_ [Hle _]]].
    assert (Hr1 : r1 = r + 1) by (apply (add_p_exact _ _ _ _ Ea Hwf); clear - H0; lia). subst r1.
    (* [r + 1] is below the next commitment number, so the point is the previous one, for [r + 2] *)
    unfold prev_point_for in Hpt. replace (r + 1 =? next_c e) with false in * by lia.
    destruct (r2 =? next_c e) eqn:Eprev; [|discriminate].
    assert (Hr2 : r2 = r + 2) by (apply (add_p_exact _ _ _ _ E2 Hwf); clear - Hle Eprev; lia).
    eapply CIe_of_cpf; [exact (set_cp_revoke_cpf _ _ _ _ Es)|].
    refine (CI_revoke _ _ _ _ _ _ _ _ _ HC _ _ Hpt); clear - Hnum Hr2 Eprev; lia.
Qed.

Definition CSInv (sg : slot * ghost) : Prop :=
  crash (fst sg) = fst sg /\ CIe (estate_of (fst sg)) (cpsigned (snd sg)) (cprevoked (snd sg)).

Lemma cs_single sg o : wf_op o -> single o -> CSInv sg -> CSInv (fst (gstep warn prof sg o)).
Proof.
  intros Hwf Hp [Hd HC]. destruct sg as [s g]. cbn [fst snd] in *.
  split; [rewrite gstep_slot; apply single_durable; assumption|].
  destruct (gstep_single warn prof s g o Hd Hp) as [r _| -> | ch ch' r -> _ Hacc];
    cbn [fst snd estate_of cpsigned cprevoked].
  - exact HC.
  - destruct o; exact HC.
  - exact (proj1 (acc_cpost _ o _ _ _ _ Hwf Hacc HC)).
Qed.

Lemma cs_reach ops : Forall wf_op ops -> CSInv (grun warn prof (Stub, ghost0) ops).
Proof.
  intros Hwf. apply (grun_inv0 warn prof CSInv); try assumption.
  - intros sg H. apply H.
  - intros; apply cs_single; assumption.
  - split; [reflexivity | exact CI_init].
Qed.

Lemma cpsig_single sg o n p c :
  wf_op o -> single o -> CSInv sg -> o_cpsig (snd (gstep warn prof sg o)) = Some (n, p, c) ->
  n <= next_r (estate_of (fst sg)) + 1 /\ exists pl, o = SignCp n p c pl.
Proof.
  intros Hwf Hp [Hd HC]. destruct sg as [s g]. cbn [fst snd] in *.
  destruct (gstep_single warn prof s g o Hd Hp) as [r [-> | ->]| -> | ch ch' r -> _ Hacc];
    cbn [snd estate_of]; try discriminate.
  - destruct (stub_reply warn prof o) as [_ [_ [_ ->]]]. discriminate.
  - apply (acc_cpost _ o _ _ _ _ Hwf Hacc HC).
Qed.

Lemma cpsig_origin sg o n p c :
  wf_op o -> CSInv sg -> o_cpsig (snd (gstep warn prof sg o)) = Some (n, p, c) ->
  n <= next_r (estate_of (fst sg)) + 1 /\ exists pl, o = SignCp n p c pl.
Proof.
  intros Hwf HC. destruct o; try (apply cpsig_single; [exact Hwf | exact I | exact HC]).
  (* a composite: neither its validation nor its second request is a signing request *)
  all: pose proof (cs_single sg (ValidateHolder n0 c0 sig_ok pol_ok) Hwf I HC) as H1.
  - rewrite gstep_HValidateOld.
    destruct (st (snd _)); intros Hx; apply cpsig_single in Hx as [_ [pl Hpl]]; try discriminate;
      assumption || exact I.
  - rewrite gstep_HValidateNew by apply HC.
    destruct (st (snd _)); [destruct (1 <=? n0); [destruct (add_p prof n0 1) as [n1|] eqn:Ea|]|..];
      intros Hx; try discriminate; apply cpsig_single in Hx as [_ [pl Hpl]]; try discriminate;
      try assumption; try exact I. exact (add_p_max prof n0 1 n1 Ea).
Qed.

End CP.

(* a section of its own for [Let reach], which [window]'s statement is written with *)
Section C03.
Variable warn : tag -> bool.
Variable prof : profile.
Hypothesis W5 : warn TPrevRevoked = false.
Hypothesis W6 : warn TRetrySame = false.
Hypothesis W4 : warn TOther = false.

Let reach (ops : list op) := grun warn prof (Stub, ghost0) ops.

Lemma window ops ch n p c :
  Forall wf_op ops -> fst (reach ops) = Ready ch ->
  In (n, p, c) (cpsigned (snd (reach ops))) ->
  (exists p', In (n, p') (cprevoked (snd (reach ops)))) \/
  (next_r (mem ch) <= n /\ n < next_r (mem ch) + 2).
Proof.
  intros Hwf Hs Hin. destruct (cs_reach warn prof W5 W6 W4 ops Hwf) as [_ HC].
  fold (reach ops) in HC. rewrite Hs in HC.
  destruct (c_sig _ _ _ _ _ _ _ HC n p c Hin) as [Hlt _].
  pose proof (c_win _ _ _ _ _ _ _ HC).
  destruct (N.lt_ge_cases n (next_r (mem ch))) as [Hr|Hr].
  - left. apply (c_all _ _ _ _ _ _ _ HC n Hr).
  - right. cbn [estate_of] in *. lia.
Qed.

End C03.
