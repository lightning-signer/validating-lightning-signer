(** C10 / C11 at the level of the models: a refused request leaves the state (memory image and
    persisted image) exactly as it was, and after every request the persisted image restores to
    the memory image. *)
From VLS Require Import Base.U64 Model.Enforcement Model.NodeOps Model.Payments
  Proofs.EnforcementProofs.
From Coq Require Import ZifyBool ZifyN ZifyNat.

Local Open Scope N_scope.

(** a composite that validates and then revokes runs both halves against the same ledger, so
    the payment verdict of the second half is the one of the first *)
Definition wf_refuse (o : op) : Prop :=
  wf_op o /\ match o with HValidateOld _ _ _ pl py => pl = true -> py = true | _ => True end.

Section Refusals.
Variable warn : tag -> bool.
Variable prof : profile.
Hypothesis Wsa : warn TSpendsActive = false.

Lemma validate_next_open e c :
  validate_holder_state warn prof e (next_h e) c = Some true -> closed e = false.
Proof.
  unfold validate_holder_state, perr. rewrite Wsa, N.eqb_refl.
  destruct (add_p prof (next_h e) 1) as [n1|]; [|discriminate].
  destruct (add_p prof (next_h e) 2) as [n2|]; [|discriminate].
  destruct (if n1 =? next_h e then _ else _) as [r|]; [|discriminate].
  destruct (closed e); [|reflexivity]. cbn [negb andb]. rewrite andb_false_r. discriminate.
Qed.

Lemma validate_accepted ch g n c sg pl :
  let r1 := gstep warn prof (Ready ch, g) (ValidateHolder n c sg pl) in
  st (snd r1) = Ok ->
  fst (fst r1) = Ready ch \/
  n = next_h (mem ch) /\ pl = true /\ closed (mem ch) = false /\
  fst (fst r1) = Ready (persist (set_nxt_h (mem ch) (Some c))).
Proof.
  cbv zeta. rewrite gstep_slot, gstep_out. cbn [fst]. rewrite step_ready. cbn [handler fst snd].
  destruct (do_validate_cases warn prof ch n c sg pl) as [ | | | -> Hv];
    cbn [st snd fst refused aborted ok0 settle]; try discriminate; intros _; [left; reflexivity|].
  right. repeat split. exact (validate_next_open _ _ Hv).
Qed.

(** Whatever the request, if the reply is a refusal then neither image of the channel changed -
    under any filter that leaves policy-commitment-spends-active-utxo in force.  A single
    request: Proofs/EnforcementModel.v.  A composite whose validation stored a new pending
    commitment is not refused by its second half: the revocation advances an open channel, the
    next point is within reach, commitment 0 is activated. *)
Theorem refused_keeps_slot ch o :
  match o with HValidateOld _ _ _ pl py => pl = true -> py = true | _ => True end ->
  mem ch = disk ch ->
  st (snd (step warn prof (Ready ch) o)) = Refused ->
  fst (step warn prof (Ready ch) o) = Ready ch.
Proof.
  intros Hpy Hmd. apply crash_ready in Hmd. set (sg := (Ready ch, ghost0)).
  rewrite <- (gstep_slot warn prof sg), <- (gstep_out warn prof sg). intros Hr.
  destruct o; try (rewrite gstep_quiet; [reflexivity | exact Hmd | exact I | congruence]).
  all: pose proof (validate_accepted ch ghost0 n c sig_ok pol_ok) as Hv; cbv zeta in Hv; fold sg in Hv.
  all: pose proof (single_durable warn prof (Ready ch) (ValidateHolder n c sig_ok pol_ok) I Hmd) as Hd;
       rewrite <- (gstep_slot warn prof sg) in Hd.
  all: rewrite ?gstep_HValidateOld, ?gstep_HValidateNew in * by exact Hmd.
  all: destruct (st (snd (gstep warn prof sg (ValidateHolder n c sig_ok pol_ok)))) eqn:E1;
       [| rewrite gstep_quiet; [reflexivity | exact Hmd | exact I | congruence] | congruence].
  all: destruct (Hv eq_refl) as [H1|[-> [Hpl [Hcl H1]]]]; clear Hv.
  - rewrite gstep_quiet; [exact H1 | exact Hd | exact I | congruence].
  - exfalso. revert Hr. rewrite gstep_out, H1, step_ready, (Hpy Hpl). cbn [handler snd].
    apply (do_revoke_advances warn prof (persist (set_nxt_h (mem ch) (Some c))) c); [reflexivity|].
    cbn [persist mem set_nxt_h closed]. rewrite Hcl. reflexivity.
  - destruct (1 <=? n); [destruct (add_p prof n 1); [|discriminate]|];
      (rewrite gstep_quiet; [exact H1 | exact Hd | exact I | congruence]).
  - exfalso. revert Hr.
    destruct (1 <=? next_h (mem ch)) eqn:E0; [destruct (add_p prof _ 1) as [n1|] eqn:Ea; [|discriminate]|];
      rewrite gstep_out, H1, step_ready; cbn [handler snd].
    + apply add_p_upper in Ea. unfold do_get_point, point_ok. cbn [persist mem set_nxt_h next_h snd].
      replace (n1 <=? next_h (mem ch) + 1) with true by lia. discriminate.
    + unfold do_activate. cbn [persist mem set_nxt_h next_h nxt_h].
      replace (next_h (mem ch) =? 0) with true by lia. discriminate.
Qed.

End Refusals.

Section Enforcement.
Variable warn : tag -> bool.
Variable prof : profile.
Hypothesis Wall : forall t, warn t = false.      (* the default filter: nothing is downgraded *)

Lemma release_refused_or e n : st (release warn prof e n) = Refused \/ st (release warn prof e n) = Abort \/
  st (release warn prof e n) = Ok.
Proof. destruct (st (release warn prof e n)); auto. Qed.

(** C10 for the enforcement state *)
Theorem refused_changes_nothing ch o :
  wf_refuse o -> mem ch = disk ch ->
  st (snd (step warn prof (Ready ch) o)) = Refused ->
  fst (step warn prof (Ready ch) o) = Ready ch.
Proof. intros [_ Hpy]. exact (refused_keeps_slot warn prof (Wall TSpendsActive) ch o Hpy). Qed.

End Enforcement.

Lemma nstep_refused s o : snd (nstep s o) = false -> fst (nstep s o) = s.
Proof.
  destruct o; cbn [nstep]; cases; cbn [fst snd]; intros; try reflexivity; discriminate.
Qed.

(** how a slot is stored: the forget flag lives in the tracker entry, next to a channel entry
    that still says ready *)
Definition on_disk (k : skind) : skind * bool :=
  match k with SForgot => (SReady, true) | _ => (k, false) end.

Definition NSync (s : nnode) : Prop :=
  (forall d, (d_chan (ndsk s) d, d_forgot (ndsk s) d) = on_disk (slots (nmem s) d)) /\
  d_hwm (ndsk s) = hwm (nmem s) /\
  (forall k, d_allow (ndsk s) k = allow (nmem s) k) /\
  d_ninv (ndsk s) = ninv (nmem s).

Lemma NSync_init : NSync ninit.
Proof. repeat split. Qed.

Lemma NSync_restore s :
  NSync s ->
  (forall d, slots (nrestore (ndsk s)) d = slots (nmem s) d) /\
  hwm (nrestore (ndsk s)) = hwm (nmem s) /\
  (forall k, allow (nrestore (ndsk s)) k = allow (nmem s) k) /\
  ninv (nrestore (ndsk s)) = ninv (nmem s).
Proof.
  intros [Hs H]. split; [|exact H]. intros d. specialize (Hs d). cbn [nrestore slots].
  destruct (slots (nmem s) d); injection Hs as H1 H2; rewrite H1, ?H2; reflexivity.
Qed.

Lemma NSync_set_slot s d k :
  NSync s -> d_forgot (ndsk s) d = snd (on_disk k) -> NSync (set_slot s d k (fst (on_disk k))).
Proof.
  intros [Hs H] Hf. split; [|exact H]. intros d0. cbn [set_slot nmem ndsk slots d_chan d_forgot]. unfold updk.
  destruct (d0 =? d) eqn:E; [|apply Hs]. apply N.eqb_eq in E. subst d0. rewrite Hf. destruct k; reflexivity.
Qed.

Lemma NSync_bump_hwm s d : NSync s -> NSync (bump_hwm s d).
Proof.
  intros HS. unfold bump_hwm. destruct (hwm (nmem s) <? d); [|exact HS].
  destruct HS as [Hs [_ H]]. split; [exact Hs | split; [reflexivity | exact H]].
Qed.

Lemma nstep_sync s o : NSync s -> NSync (fst (nstep s o)).
Proof.
  intros HS. pose proof HS as [Hs [Hh [Ha Hn]]].
  assert (Hf : forall d, d_forgot (ndsk s) d = snd (on_disk (slots (nmem s) d)))
    by (intros d; rewrite <- Hs; reflexivity).
  destruct o; cbn [nstep]; try exact HS.
  - destruct (d <=? hwm (nmem s)); [exact HS|]. specialize (Hf d).
    destruct (slots (nmem s) d); try exact HS. exact (NSync_set_slot s d SStub HS Hf).
  - specialize (Hf d). destruct (slots (nmem s) d); try exact HS. exact (NSync_set_slot s d SReady HS Hf).
  - specialize (Hf d). destruct (slots (nmem s) d) eqn:Ek; try exact HS; apply NSync_bump_hwm.
    1: exact (NSync_set_slot s d SNone HS Hf).
    (* the flag is set in the tracker entry, the channel entry still says ready *)
    all: split; [|exact (conj Hh (conj Ha Hn))]; intros d0;
         cbn [set_slot nmem ndsk slots d_chan d_forgot]; unfold updk;
         destruct (d0 =? d); [reflexivity | apply Hs].
  - destruct parses; [|exact HS]. split; [exact Hs|]. repeat split; [exact Hh | exact Hn].
  - destruct parses; [|exact HS]. split; [exact Hs|]. repeat split; [exact Hh | exact Hn].
  - destruct parses; [|exact HS]. split; [exact Hs|]. repeat split; [exact Hh | exact Hn].
  - destruct (MAX_INV <=? ninv (nmem s)); [exact HS|]. repeat split; assumption.
  - (* IssueInvoice: memory only, and nothing that a restart is promised to bring back *)
    destruct (MAX_INV <=? iss_count (iss (nmem s))); [exact HS|].
    destruct (iss (nmem s) h); [exact HS|]. destruct (0 <? a); exact HS.
  - apply NSync_restore in HS. destruct HS as [R1 [R2 [R3 R4]]].
    split; [|repeat split; symmetry; auto]. intros d. cbn [fst nmem ndsk]. rewrite R1. apply Hs.
Qed.

Lemma nrun_sync ops : forall s, NSync s -> NSync (nrun s ops).
Proof.
  induction ops as [|o ops IH]; intros s H; cbn [nrun]; [exact H | apply IH, nstep_sync, H].
Qed.

Lemma pstep_refused nch mf mp s o : snd (pstep nch mf mp s o) = false -> fst (pstep nch mf mp s o) = s.
Proof.
  destruct o; cbn [pstep]; cases; cbn [fst snd]; intros; try reflexivity; discriminate.
Qed.
