(** Proofs about Model/Keys.v: history independence of channel keys for the Native and Ldk
    styles, distinctness under injectivity of the hash parameters, and the supporting facts
    (the HMAC key normalisation is injective on the channel ids the API produces; the LDK
    derivation never hits its assert; flipping a bit is an involution). *)
From VLS Require Import Base.U64 Base.Sha256 Model.Secrets Model.Keys Proofs.SecretsProofs.
From VLS Require Base.Codec.

Lemma lookup_in {A} id : forall (l : list (bytes * A)) a, lookup id l = Some a -> In (id, a) l.
Proof.
  induction l as [|[i b] l IH]; intros a Hl; cbn [lookup] in Hl; [discriminate|].
  destruct (bytes_eqb i id) eqn:E.
  - apply bytes_eqb_eq in E. inversion Hl; subst. left; reflexivity.
  - right. apply IH; exact Hl.
Qed.

Lemma replace_in {A} id (a : A) : forall l i a',
  In (i, a') (replace id a l) -> In (i, a') l \/ (i = id /\ a' = a).
Proof.
  induction l as [|[j b] l IH]; intros i a' Hin; cbn [replace] in Hin; [contradiction|].
  destruct (bytes_eqb j id) eqn:E.
  - destruct Hin as [Hin|Hin].
    + apply bytes_eqb_eq in E. inversion Hin; subst. right; split; reflexivity.
    + left; right; exact Hin.
  - destruct Hin as [Hin|Hin].
    + left; left; exact Hin.
    + destruct (IH _ _ Hin) as [H|H]; [left; right; exact H|right; exact H].
Qed.

Lemma skipn_plus {A} m : forall n (l : list A), skipn n (skipn m l) = skipn (m + n) l.
Proof. induction m as [|m IH]; intros n [|x l]; cbn [skipn Nat.add]; auto using skipn_nil. Qed.
Lemma slice32_split i (l : bytes) : skipn (32 * i) l = slice32 i l ++ skipn (32 * S i) l.
Proof.
  unfold slice32. rewrite <- (firstn_skipn 32 (skipn (32 * i) l)) at 1. f_equal.
  rewrite skipn_plus, Nat.mul_succ_r. reflexivity.
Qed.
Lemma slices_eq (a b : bytes) :
  length a = 192%nat -> length b = 192%nat ->
  slice32 0 a = slice32 0 b -> slice32 1 a = slice32 1 b -> slice32 2 a = slice32 2 b ->
  slice32 3 a = slice32 3 b -> slice32 4 a = slice32 4 b -> slice32 5 a = slice32 5 b -> a = b.
Proof.
  intros La Lb H0 H1 H2 H3 H4 H5.
  assert (forall l : bytes, length l = 192%nat ->
            l = slice32 0 l ++ slice32 1 l ++ slice32 2 l ++ slice32 3 l ++ slice32 4 l ++ slice32 5 l) as Hdec.
  { intros l Hl. change l with (skipn (32 * 0) l) at 1.
    rewrite (slice32_split 0), (slice32_split 1), (slice32_split 2), (slice32_split 3), (slice32_split 4),
      (slice32_split 5), (skipn_all2 l), app_nil_r by (rewrite Hl; apply Nat.le_refl). reflexivity. }
  rewrite (Hdec a La), (Hdec b Lb), H0, H1, H2, H3, H4, H5. reflexivity.
Qed.

Lemma app_inj_len {A} : forall (a b r1 r2 : list A), length a = length b -> a ++ r1 = b ++ r2 -> a = b.
Proof.
  induction a as [|x a IH]; intros [|y b] r1 r2 Hl He; cbn [length app] in *; try discriminate; [reflexivity|].
  inversion He; subst. f_equal. eapply IH; [|eassumption]. lia.
Qed.

Lemma ldk_mask_length r : length (ldk_mask r) = length r.
Proof. unfold ldk_mask. do 5 (destruct r as [|? r]; [reflexivity|]). reflexivity. Qed.

Lemma ldk_mask_index r :
  length r = 32%nat -> Forall (fun b => b < 256) r -> be_val (firstn 8 (ldk_mask r)) < 2147483648.
Proof.
  intros Hl Hb. do 8 (destruct r as [|? r]; [discriminate Hl|]).
  cbn [ldk_mask firstn be_val fold_left].
  repeat match goal with H : Forall _ (_ :: _) |- _ => inversion H; clear H; subst end.
  match goal with |- context [N.land ?b 127] =>
    assert (N.land b 127 < 128) by
      (replace 127 with (N.ones 7) by reflexivity; rewrite N.land_ones;
       apply N.mod_lt; discriminate);
    set (v := N.land b 127) in * end.
  clearbody v. lia.
Qed.

Lemma upd_upd {A} (v w : A) : forall l n, upd n v (upd n w l) = upd n v l.
Proof. induction l as [|a l IH]; intros [|n]; cbn [upd]; try reflexivity. rewrite IH. reflexivity. Qed.
Lemma upd_same {A} : forall (l : list A) n v, nth_error l n = Some v -> upd n v l = l.
Proof.
  induction l as [|a l IH]; intros [|n] v Hn; cbn [upd nth_error] in *; try discriminate.
  - inversion Hn; reflexivity.
  - rewrite IH by exact Hn. reflexivity.
Qed.

Lemma flip_bit_invol b s : flip_bit b (flip_bit b s) = s.
Proof.
  unfold flip_bit. destruct (nth_error s (Nat.div b 8)) as [v|] eqn:E.
  - rewrite upd_nth_same, upd_upd by (apply nth_error_Some; rewrite E; discriminate).
    rewrite N.lxor_assoc, N.lxor_nilpotent, N.lxor_0_r. apply upd_same; exact E.
  - rewrite E. reflexivity.
Qed.
Lemma flip_bit_inj b s1 s2 : flip_bit b s1 = flip_bit b s2 -> s1 = s2.
Proof. intros Hf. rewrite <- (flip_bit_invol b s1), Hf. apply flip_bit_invol. Qed.

Lemma derive_secret_inj (H : bytes -> bytes) :
  (forall a b, H a = H b -> a = b) ->
  forall bits idx s1 s2,
    derive_secret bytes H flip_bit s1 bits idx = derive_secret bytes H flip_bit s2 bits idx -> s1 = s2.
Proof.
  intros Hinj. induction bits as [|b IH]; intros idx s1 s2 Hd; cbn [derive_secret] in Hd; [exact Hd|].
  apply IH in Hd. unfold dstep in Hd. destruct (N.testbit idx (N.of_nat b)); [|exact Hd].
  apply Hinj, flip_bit_inj in Hd. exact Hd.
Qed.

Lemma zeros_length n : length (zeros n) = n.
Proof. induction n; cbn [zeros length]; congruence. Qed.
Lemma zeros_all n b : In b (zeros n) -> b = 0.
Proof. induction n; cbn [zeros]; intros Hin; [contradiction|]. destruct Hin as [H|H]; [symmetry; exact H|auto]. Qed.

Lemma hmac_key_short k : (length k <= 64)%nat -> hmac_key k = k ++ zeros (64 - length k).
Proof.
  intros Hl. unfold hmac_key.
  assert (Nat.ltb 64 (length k) = false) as -> by (apply Nat.ltb_ge; exact Hl). reflexivity.
Qed.

Lemma hmac_key_inj_on_api a b : api_id a -> api_id b -> hmac_key a = hmac_key b -> a = b.
Proof.
  assert (forall x y : bytes, length x = length y -> (length x <= 64)%nat -> hmac_key x = hmac_key y -> x = y) as Hsame.
  { intros x y Hl Hx Hk. rewrite !hmac_key_short in Hk by lia. rewrite Hl in Hk.
    apply app_inv_tail in Hk. exact Hk. }
  assert (forall x y : bytes, length x = 32%nat ->
            (length y = 41%nat /\ exists c, In c (skipn 33 y) /\ c <> 0) -> hmac_key x = hmac_key y -> False) as Hdiff.
  { (* past byte 33 the padded 32-byte id is all zeros *)
    intros x y Hx [Hy [c [Hc Hnz]]] Hk. rewrite !hmac_key_short in Hk by lia. apply Hnz, (zeros_all 31).
    apply (f_equal (skipn 33)) in Hk. rewrite !skipn_app, Hx, Hy, (skipn_all2 x) in Hk by lia.
    change (zeros 31) with ([] ++ skipn (33 - 32) (zeros (64 - 32))). rewrite Hk.
    apply in_or_app. left. exact Hc. }
  intros [Ha|Ha] [Hb|Hb] Hk.
  - apply Hsame; [congruence|lia|exact Hk].
  - exfalso. eapply Hdiff; eauto.
  - exfalso. eapply Hdiff; eauto.
  - destruct Ha as [Ha _], Hb as [Hb _]. apply Hsame; [congruence|lia|exact Hk].
Qed.

Lemma le_bytes_length n d : length (le_bytes n d) = n.
Proof. apply Codec.le_enc_length. Qed.

(* [le_bytes] is [Codec.le_enc], whose left inverse is [Codec.le_val] *)
Lemma le_bytes_inj n : forall d1 d2, d1 < 256 ^ N.of_nat n -> d2 < 256 ^ N.of_nat n ->
  le_bytes n d1 = le_bytes n d2 -> d1 = d2.
Proof.
  intros d1 d2 H1 H2 He. rewrite <- (Codec.le_val_enc n d1 H1), <- (Codec.le_val_enc n d2 H2).
  exact (f_equal Codec.le_val He).
Qed.

Lemma le_bytes_nonzero n : forall d, d < 256 ^ N.of_nat n -> d <> 0 -> exists b, In b (le_bytes n d) /\ b <> 0.
Proof.
  induction n as [|n IH]; intros d Hd Hnz.
  - cbn in Hd. lia.
  - cbn [le_bytes]. destruct (N.eq_dec (d mod 256) 0) as [Hz|Hz].
    + rewrite Nat2N.inj_succ, N.pow_succ_r' in Hd.
      destruct (IH (d / 256)) as [b [Hin Hb]].
      * apply N.div_lt_upper_bound; [discriminate|exact Hd].
      * intros Hq. apply Hnz. rewrite (N.div_mod d 256), Hz, Hq by discriminate. reflexivity.
      * exists b. split; [right; exact Hin|exact Hb].
    + exists (d mod 256). split; [left; reflexivity|exact Hz].
Qed.

Lemma chan_id_of_inj p1 d1 p2 d2 :
  length p1 = length p2 -> d1 < two64 -> d2 < two64 ->
  chan_id_of p1 d1 = chan_id_of p2 d2 -> p1 = p2 /\ d1 = d2.
Proof.
  intros Hl H1 H2 He. unfold chan_id_of in He.
  pose proof (app_inj_len _ _ _ _ Hl He) as Hp. subst p2. apply app_inv_head in He.
  split; [reflexivity|]. apply (le_bytes_inj 8); [exact H1|exact H2|exact He].
Qed.

Lemma chan_id_of_api peer dbid : length peer = 33%nat -> 0 < dbid < two64 -> api_id (chan_id_of peer dbid).
Proof.
  intros Hl Hd. right. unfold chan_id_of. split.
  - rewrite app_length, le_bytes_length, Hl. reflexivity.
  - rewrite skipn_app, Hl, Nat.sub_diag. rewrite skipn_all2 by lia. cbn [app skipn].
    apply le_bytes_nonzero; [exact (proj2 Hd)|lia].
Qed.

Lemma check_future_secret_spec (sha : bytes -> bytes) (k : chkeys) (n : nat) (s : bytes) :
  check_future_secret sha k n s = true <-> s = commit_secret sha k n.
Proof. unfold check_future_secret. apply bytes_eqb_eq. Qed.

Section KeysProofs.
  Variable hkdf : bytes -> bytes -> bytes -> nat -> bytes.
  Variable sha : bytes -> bytes.
  Variable xpriv : Type.
  Variable bip_master : N -> bytes -> xpriv.
  Variable bip_child_h : xpriv -> N -> xpriv.
  Variable bip_priv : xpriv -> bytes.
  Variable lnd_key : N -> xpriv -> N -> N -> bytes.

  Local Notation derive := (derive hkdf sha xpriv bip_master bip_child_h bip_priv lnd_key).
  Local Notation derive_kid := (derive_with_keys_id hkdf sha xpriv bip_master bip_child_h bip_priv lnd_key).
  Local Notation channel_keys := (channel_keys hkdf sha xpriv bip_master bip_child_h bip_priv lnd_key).
  Local Notation keys_of := (keys_of hkdf sha xpriv bip_master bip_child_h bip_priv lnd_key).
  Local Notation keys_id := (keys_id hkdf).
  Local Notation step := (step hkdf sha xpriv bip_master bip_child_h bip_priv lnd_key).
  Local Notation run := (run hkdf sha xpriv bip_master bip_child_h bip_priv lnd_key).
  Local Notation restore_chans := (restore_chans hkdf sha xpriv bip_master bip_child_h bip_priv lnd_key).

  Definition same_base (seed : bytes) (st : style) (net : N) (m : mgr) : Prop :=
    m_seed m = seed /\ m_style m = st /\ m_net m = net.

  (** the running basepoint index is read by the Lnd style only *)
  Lemma channel_keys_no_counter st net seed kid bp1 bp2 :
    st <> Lnd -> channel_keys st net seed kid bp1 = channel_keys st net seed kid bp2.
  Proof. intros Hs. destruct st; [reflexivity|reflexivity|contradiction]. Qed.

  Lemma derive_indep seed st net m1 m2 id :
    st <> Lnd -> same_base seed st net m1 -> same_base seed st net m2 ->
    fst (derive m1 id) = fst (derive m2 id).
  Proof.
    intros Hs [S1 [T1 N1]] [S2 [T2 N2]]. unfold Keys.derive, derive_with_keys_id. cbn [fst].
    rewrite S1, S2, T1, T2, N1, N2. apply channel_keys_no_counter; exact Hs.
  Qed.

  Lemma derive_base seed st net m id : same_base seed st net m -> same_base seed st net (snd (derive m id)).
  Proof. intros Hb. exact Hb. Qed.
  Lemma mgr_new_base seed st net : same_base seed st net (mgr_new seed st net).
  Proof. repeat split. Qed.

  Lemma derive_is_keys_of seed st net m id :
    st <> Lnd -> same_base seed st net m -> fst (derive m id) = keys_of st net seed id.
  Proof. intros Hs Hb. apply (derive_indep seed st net); [exact Hs|exact Hb|apply mgr_new_base]. Qed.

  Definition node_inv (seed : bytes) (st : style) (net : N) (nd : node) : Prop :=
    same_base seed st net (n_mgr nd) /\
    forall id sl, In (id, sl) (n_chans nd) -> Some (s_keys sl) = keys_of st net seed id.

  Lemma restore_inv seed st net : st <> Lnd -> forall entries m,
    same_base seed st net m ->
    same_base seed st net (fst (restore_chans m entries)) /\
    forall id sl, In (id, sl) (snd (restore_chans m entries)) -> Some (s_keys sl) = keys_of st net seed id.
  Proof.
    intros Hs. induction entries as [|[id ready] r IH]; intros m Hb; cbn [Keys.restore_chans].
    - split; [exact Hb|]. intros ? ? [].
    - pose proof (derive_is_keys_of seed st net m id Hs Hb) as Hk.
      destruct (derive m id) as [ok m1] eqn:Ed. cbn [fst] in Hk.
      assert (same_base seed st net (bump_chanid m1)) as Hb1.
      { pose proof (derive_base seed st net m id Hb) as H1. rewrite Ed in H1. exact H1. }
      destruct (IH _ Hb1) as [IHb IHc].
      destruct (restore_chans (bump_chanid m1) r) as [m2 rest]. cbn [fst snd] in *.
      destruct ok as [k|]; cbn [fst snd]; (split; [exact IHb|]).
      + intros id' sl [Hin|Hin]; [|apply IHc; exact Hin]. inversion Hin; subst. cbn [s_keys]. exact Hk.
      + exact IHc.
  Qed.

  Lemma step_inv seed st net nd o :
    st <> Lnd -> node_inv seed st net nd -> node_inv seed st net (step nd o).
  Proof.
    intros Hs [Hb Hc]. destruct o as [id|id| |kid|]; cbn [Keys.step].
    - destruct (lookup id (n_chans nd)); [split; assumption|].
      pose proof (derive_is_keys_of seed st net _ id Hs Hb) as Hk.
      pose proof (derive_base seed st net _ id Hb) as Hb1.
      destruct (derive (n_mgr nd) id) as [[k|] m1]; cbn [fst snd] in *; (split; [exact Hb1|]); cbn [n_chans].
      + intros id' sl Hin. apply in_app_or in Hin. destruct Hin as [Hin|[Hin|[]]]; [apply Hc; exact Hin|].
        inversion Hin; subst. cbn [s_keys]. exact Hk.
      + exact Hc.
    - destruct (lookup id (n_chans nd)) as [sl|] eqn:El; [|split; assumption].
      split; [exact Hb|]. cbn [n_chans]. intros id' sl' Hin.
      apply replace_in in Hin. destruct Hin as [Hin|[-> ->]]; [apply Hc; exact Hin|].
      cbn [s_keys]. apply Hc. apply lookup_in; exact El.
    - destruct Hb as [S1 [T1 N1]]. rewrite S1, T1, N1.
      destruct (restore_inv seed st net Hs (n_store nd) _ (mgr_new_base seed st net)) as [Hb' Hc'].
      destruct (restore_chans (mgr_new seed st net) (n_store nd)) as [m1 chans].
      split; [exact Hb'|exact Hc'].
    - split; [exact Hb|exact Hc].
    - split; [exact Hb|exact Hc].
  Qed.

  Lemma run_inv seed st net ops : st <> Lnd -> node_inv seed st net (run seed st net ops).
  Proof.
    intros Hs. unfold Keys.run.
    assert (node_inv seed st net (node_new seed st net)) as H0.
    { split; [apply mgr_new_base|]. intros ? ? []. }
    revert H0. generalize (node_new seed st net). induction ops as [|o ops IH]; intros nd Hn; cbn [fold_left].
    - exact Hn.
    - apply IH. apply step_inv; assumption.
  Qed.

  Theorem node_keys_function seed st net ops id sl :
    st <> Lnd -> lookup id (n_chans (run seed st net ops)) = Some sl ->
    Some (s_keys sl) = keys_of st net seed id.
  Proof.
    intros Hs Hl. destruct (run_inv seed st net ops Hs) as [_ Hc]. apply Hc. apply lookup_in; exact Hl.
  Qed.

  Lemma keys_of_native net seed id :
    keys_of Native net seed id = Some (native_keys hkdf (keys_id Native (channels_seed hkdf seed) id)).
  Proof. reflexivity. Qed.
  Lemma native_slot_keys seed net ops id sl :
    lookup id (n_chans (run seed Native net ops)) = Some sl ->
    s_keys sl = native_keys hkdf (keys_id Native (channels_seed hkdf seed) id).
  Proof.
    intros Hl. apply node_keys_function in Hl; [|discriminate]. rewrite keys_of_native in Hl.
    injection Hl as Hl. exact Hl.
  Qed.

  Theorem manager_history_independent seed st net ops1 ops2 id :
    st <> Lnd ->
    fst (derive (n_mgr (run seed st net ops1)) id) = fst (derive (n_mgr (run seed st net ops2)) id).
  Proof.
    intros Hs. destruct (run_inv seed st net ops1 Hs) as [H1 _]. destruct (run_inv seed st net ops2 Hs) as [H2 _].
    apply (derive_indep seed st net); assumption.
  Qed.

  Section Distinct.
    Variable seed : bytes.
    Variable net : N.
    Hypothesis hkdf_len : forall s i salt n, length (hkdf s i salt n) = (32 * n)%nat.
    Hypothesis hkdf_bytes : forall s i salt n, Forall (fun b => b < 256) (hkdf s i salt n).
    (** the (masked, for Ldk) per-channel HKDF is injective in its salt on API channel ids *)
    Hypothesis keys_id_inj : forall st id1 id2, api_id id1 -> api_id id2 -> id1 <> id2 ->
      keys_id st (channels_seed hkdf seed) id1 <> keys_id st (channels_seed hkdf seed) id2.
    (** the 192-byte expansion is injective in the key *)
    Hypothesis expand_inj : forall k1 k2, k1 <> k2 ->
      hkdf k1 s_clightning [] 6 <> hkdf k2 s_clightning [] 6.
    Hypothesis sha_inj : forall a b, sha a = sha b -> a = b.

    Lemma keys_id_length st base id : length (keys_id st base id) = 32%nat.
    Proof.
      unfold Keys.keys_id. destruct st; rewrite ?ldk_mask_length, hkdf_len; reflexivity.
    Qed.

    Lemma native_keys_inj k1 k2 : k1 <> k2 -> native_keys hkdf k1 <> native_keys hkdf k2.
    Proof.
      intros Hne Heq. apply (expand_inj k1 k2 Hne). unfold native_keys in Heq.
      inversion Heq. apply slices_eq; try assumption; apply hkdf_len.
    Qed.

    Lemma ldk_never_panics base id :
      exists k, ldk_keys sha xpriv bip_child_h bip_priv seed (keys_id Ldk base id) (master_key hkdf xpriv bip_master Ldk net seed) = Some k.
    Proof.
      unfold ldk_keys, Keys.keys_id.
      pose proof (ldk_mask_index (hkdf base s_per_peer_seed id 1) (hkdf_len _ _ _ _) (hkdf_bytes _ _ _ _)) as Hi.
      set (c := be_val (firstn 8 (ldk_mask (hkdf base s_per_peer_seed id 1)))) in *.
      assert (c <=? U32MAX = true) as -> by (apply N.leb_le; unfold U32MAX; lia).
      assert (as_u32 c = c) as -> by (unfold as_u32, two32; apply N.mod_small; lia).
      assert (c <? 2147483648 = true) as -> by (apply N.ltb_lt; exact Hi).
      cbn [andb]. eexists; reflexivity.
    Qed.

    Lemma ldk_cseed_inj kid1 kid2 m k1 k2 :
      length kid1 = 32%nat -> length kid2 = 32%nat -> kid1 <> kid2 ->
      ldk_keys sha xpriv bip_child_h bip_priv seed kid1 m = Some k1 ->
      ldk_keys sha xpriv bip_child_h bip_priv seed kid2 m = Some k2 ->
      k_cseed k1 <> k_cseed k2.
    Proof.
      intros L1 L2 Hne H1 H2 Heq. unfold ldk_keys in H1, H2.
      destruct (_ && _) in H1; [|discriminate]. destruct (_ && _) in H2; [|discriminate].
      (* only the commitment seeds of the two key sets are compared *)
      apply (f_equal (option_map k_cseed)) in H1, H2. cbn [option_map k_cseed] in H1, H2.
      rewrite <- Heq, <- H1 in H2. injection H2 as E.
      apply sha_inj, app_inv_tail, sha_inj in E. apply Hne.
      symmetry. eapply app_inj_len; [|exact E]. congruence.
    Qed.

    Theorem distinct_ids_distinct_keys st id1 id2 :
      st <> Lnd -> api_id id1 -> api_id id2 -> id1 <> id2 ->
      exists k1 k2, keys_of st net seed id1 = Some k1 /\ keys_of st net seed id2 = Some k2 /\ k1 <> k2 /\
                    (st = Ldk -> k_cseed k1 <> k_cseed k2).
    Proof.
      intros Hs A1 A2 Hne. pose proof (keys_id_inj st id1 id2 A1 A2 Hne) as Hk.
      unfold Keys.keys_of, Keys.derive, derive_with_keys_id, mgr_new. cbn [fst m_style m_seed m_net m_lnd_index].
      destruct st; [| |contradiction]; cbn [Keys.channel_keys].
      - eexists _, _. split; [reflexivity|]. split; [reflexivity|]. split; [|discriminate].
        apply native_keys_inj; exact Hk.
      - destruct (ldk_never_panics (channels_seed hkdf seed) id1) as [k1 E1].
        destruct (ldk_never_panics (channels_seed hkdf seed) id2) as [k2 E2].
        exists k1, k2. split; [exact E1|]. split; [exact E2|].
        assert (k_cseed k1 <> k_cseed k2) as Hc
          by (eapply ldk_cseed_inj; [| |exact Hk|exact E1|exact E2]; apply keys_id_length).
        split; [congruence|intros _; exact Hc].
    Qed.

    Theorem distinct_seeds_distinct_secrets k1 k2 n :
      k_cseed k1 <> k_cseed k2 -> commit_secret sha k1 n <> commit_secret sha k2 n.
    Proof.
      intros Hne Heq. apply Hne. unfold commit_secret, build_commitment_secret in Heq.
      eapply derive_secret_inj; [exact sha_inj|exact Heq].
    Qed.
  End Distinct.
End KeysProofs.

(** HMAC reads its key through [hmac_key] only, and the channel id is the HKDF salt, i.e. the key
    of the extraction HMAC: ids with the same padded form have the same keys id. *)
Lemma keys_id_reads_padded_salt (st : style) (base id1 id2 : bytes) :
  hmac_key id1 = hmac_key id2 -> keys_id hkdf_sha256 st base id1 = keys_id hkdf_sha256 st base id2.
Proof.
  intros Hk. unfold keys_id, hkdf_sha256, hkdf_extract, hmac_sha256. rewrite Hk. reflexivity.
Qed.
