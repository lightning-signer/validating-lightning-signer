(** Facts about the Rust fragment of Base/Rust.v shared by the proofs over the generated files:
    arithmetic under a build profile, the result monad and its loops, maps and sets as lists. *)
From Coq Require Import String Permutation.
From VLS Require Import Base.Rust.
From VLS Require Base.Eqb.

Lemma add_p_ok prof a b : a + b <= U64MAX -> add_p prof a b = Val (a + b).
Proof.
  intros H. destruct prof; cbn [add_p].
  - destruct (a + b <=? U64MAX) eqn:E; [reflexivity | lia].
  - unfold add_wrap. f_equal. apply N.mod_small. unfold two64, U64MAX in *. lia.
Qed.

Lemma sub_p_ok prof a b : b <= a -> a <= U64MAX -> sub_p prof a b = Val (a - b).
Proof.
  intros H Ha. destruct prof; cbn [sub_p].
  - destruct (b <=? a) eqn:E; [reflexivity | lia].
  - unfold sub_wrap. f_equal. unfold two64, U64MAX in *.
    replace (a + 18446744073709551616 - b) with ((a - b) + 1 * 18446744073709551616) by lia.
    rewrite N.mod_add by lia. apply N.mod_small. lia.
Qed.

Lemma mul_p_ok prof a b : a * b <= U64MAX -> mul_p prof a b = Val (a * b).
Proof.
  intros H. destruct prof; cbn [mul_p].
  - destruct (a * b <=? U64MAX) eqn:E; [reflexivity | lia].
  - unfold mul_wrap. f_equal. apply N.mod_small. unfold two64, U64MAX in *. lia.
Qed.

Lemma div_p_ok a b : b <> 0 -> div_p a b = Val (a / b).
Proof. intros H. unfold div_p. destruct (N.eqb_spec b 0); [contradiction | reflexivity]. Qed.

Lemma rem_p_ok a b : b <> 0 -> rem_p a b = Val (a mod b).
Proof. intros H. unfold rem_p. destruct (N.eqb_spec b 0); [contradiction | reflexivity]. Qed.

Lemma sub32_p_ok prof a b : a < two32 -> b <= a -> sub32_p prof a b = Val (a - b).
Proof.
  intros Ha Hb. unfold sub32_p. destruct prof.
  - destruct (N.leb_spec b a); [reflexivity | lia].
  - f_equal. replace (a + two32 - b) with ((a - b) + 1 * two32) by lia.
    rewrite N.mod_add by (unfold two32; lia). apply N.mod_small. lia.
Qed.

Lemma add32_p_ok prof a b : a + b <= U32MAX -> add32_p prof a b = Val (a + b).
Proof.
  intros H. destruct prof; cbn [add32_p].
  - destruct (a + b <=? U32MAX) eqn:E; [reflexivity | lia].
  - f_equal. apply N.mod_small. unfold two32, U32MAX in *. lia.
Qed.

Lemma mul128_p_ok prof a b : a * b < two128 -> mul128_p prof a b = Val (a * b).
Proof.
  intros H. destruct prof; cbn [mul128_p].
  - destruct (a * b <? two128) eqn:E; [reflexivity | lia].
  - f_equal. apply N.mod_small. exact H.
Qed.

Lemma add128_p_ok prof a b : a + b < two128 -> add128_p prof a b = Val (a + b).
Proof.
  intros H. destruct prof; cbn [add128_p].
  - destruct (a + b <? two128) eqn:E; [reflexivity | lia].
  - f_equal. apply N.mod_small. exact H.
Qed.

Lemma bindR_unit (x : trap (result unit)) : bindR x (fun _ => Val (OkR tt)) = x.
Proof. destruct x as [[[]|t]|]; reflexivity. Qed.

Lemma bindR_ret {A} (x : trap (result A)) : bindR x (fun a => Val (OkR a)) = x.
Proof. destruct x as [[a|t]|]; reflexivity. Qed.

Lemma bindR_cong {A B} (x : trap (result A)) (f g : A -> trap (result B)) :
  (forall a, f a = g a) -> bindR x f = bindR x g.
Proof. intros H. destruct x as [[a|t]|]; cbn [bindR]; [apply H | reflexivity | reflexivity]. Qed.

Lemma bindR_both {A B} (x y : trap (result A)) (f g : A -> trap (result B)) :
  x = y -> (forall a, f a = g a) -> bindR x f = bindR y g.
Proof. intros <-. apply bindR_cong. Qed.

Lemma bindR_ok {A B} (a : A) (f : A -> trap (result B)) : bindR (Val (OkR a)) f = f a.
Proof. reflexivity. Qed.

Lemma bindR_inv {A B} (x : trap (result A)) (f : A -> trap (result B)) b :
  bindR x f = Val (OkR b) -> exists a, x = Val (OkR a) /\ f a = Val (OkR b).
Proof.
  destruct x as [[a|t]|]; cbn [bindR]; intros H; try discriminate. exists a. split; [reflexivity | exact H].
Qed.

(** the generated text ends every block with [Val (OkR tt)]; [norm] removes these units and the
    binds of values already computed *)
Ltac norm := repeat (progress (cbn [bindT]; rewrite ?bindR_unit, ?bindR_ok)).

(** a policy tag is a string literal of some 250 constructors, and every [rewrite], [cbn] or
    [destruct] on the unfolded source walks through each occurrence: give it a name first *)
Ltac name_string x s := let n := eval cbv in s in set (x := n).

Lemma if_val {A} (b : bool) (x y : A) : (if b then Val x else Val y) = Val (if b then x else y).
Proof. destruct b; reflexivity. Qed.

Definition status_of {A} (x : trap (result A)) : option bool :=
  match x with
  | Trap => None
  | Val (OkR _) => Some true
  | Val (ErrR _) => Some false
  end.

(** [if c { policy_err!(self, tag, ..) }] followed by [k]: refused iff [c] and the filter does
    not downgrade the tag *)
Lemma status_check {A} swarn (c : bool) tag (k : trap (result A)) :
  status_of (bindR (if c then policy_err swarn tag else Val (OkR tt)) (fun _ => k)) =
  if c && negb (swarn tag) then Some false else status_of k.
Proof. unfold policy_err. destruct c; [destruct (swarn tag)|]; reflexivity. Qed.

Lemma status_check_last swarn (c : bool) tag :
  status_of (if c then policy_err swarn tag else Val (OkR tt)) =
  if c && negb (swarn tag) then Some false else Some true.
Proof.
  rewrite <- (bindR_unit (if c then _ else _)). exact (status_check swarn c tag (Val (OkR tt))).
Qed.

Lemma is_empty_len {A} (l : list A) : is_empty_of l = (len_of l =? 0).
Proof. destruct l; [reflexivity|]. unfold len_of. cbn [is_empty_of length]. symmetry. apply N.eqb_neq. lia. Qed.

Lemma not_none_some {A} (o : option A) : negb (is_none_of o) = is_some_of o.
Proof. destruct o; reflexivity. Qed.

Lemma vec_insert0 v : vec_insert v 0 0 = Val (0 :: v).
Proof.
  unfold vec_insert. destruct (vec_len v <? 0) eqn:E; [lia|]. reflexivity.
Qed.

Lemma vec_resize_shrink (v : list N) n :
  (n <= length v)%nat -> vec_resize v (N.of_nat n) 0 = firstn n v.
Proof.
  intros H. unfold vec_resize. rewrite Nat2N.id. replace (n - length v)%nat with 0%nat by lia.
  cbn [repeat]. apply app_nil_r.
Qed.

Lemma fold_r_pure {S A} (body : S -> A -> trap (result S)) (f : S -> A -> S) (P : S -> Prop) l :
  (forall s a, P s -> In a l -> body s a = Val (OkR (f s a)) /\ P (f s a)) ->
  forall s, P s -> fold_r body l s = Val (OkR (fold_left f l s)) /\ P (fold_left f l s).
Proof.
  induction l as [|a r IH]; intros Hb s Hs; cbn [fold_r fold_left]; [split; [reflexivity | exact Hs]|].
  destruct (Hb s a Hs (or_introl eq_refl)) as [E Ps]. rewrite E. cbn [bindR].
  apply IH; [|exact Ps]. intros s' a' Hs' Ha'. apply Hb; [exact Hs' | right; exact Ha'].
Qed.

Lemma fold_r_plain {S A} (body : S -> A -> trap (result S)) (f : S -> A -> S) l :
  (forall s a, body s a = Val (OkR (f s a))) -> forall s, fold_r body l s = Val (OkR (fold_left f l s)).
Proof.
  intros Hb s. apply (fold_r_pure body f (fun _ => True)); [|exact I]. intros s' a _ _. split; [apply Hb | exact I].
Qed.

Lemma fold_r_ok_each {S A} (body : S -> A -> trap (result S)) l :
  forall s s', fold_r body l s = Val (OkR s') ->
  forall x, In x l -> exists a a', body a x = Val (OkR a').
Proof.
  induction l as [|y r IH]; intros s s' Hf x Hx; [destruct Hx|].
  cbn [fold_r] in Hf. apply bindR_inv in Hf. destruct Hf as (s1 & Hb & Hf).
  destruct Hx as [<-|Hx]; [exists s, s1; exact Hb | exact (IH s1 s' Hf x Hx)].
Qed.

Lemma fold_collect (body : list N -> N -> trap (result (list N))) (ok : N -> bool) l :
  (forall acc h, In h l -> body acc h = Val (OkR (if ok h then acc else vec_push acc h))) ->
  forall acc, fold_r body l acc = Val (OkR (acc ++ filter (fun h => negb (ok h)) l)).
Proof.
  induction l as [|h r IH]; intros Hb acc; cbn [fold_r filter].
  - rewrite app_nil_r. reflexivity.
  - rewrite Hb by (left; reflexivity). cbn [bindR].
    rewrite IH by (intros a x Hx; apply Hb; right; exact Hx).
    destruct (ok h); cbn [negb]; [reflexivity|]. unfold vec_push. rewrite <- app_assoc. reflexivity.
Qed.

Lemma filter_empty_forallb {A} (ok : A -> bool) l :
  is_empty_of (filter (fun h => negb (ok h)) l) = forallb ok l.
Proof.
  induction l as [|h r IH]; [reflexivity|]. cbn [filter forallb].
  destruct (ok h); cbn [negb andb]; [exact IH | reflexivity].
Qed.

(** [retain] with a closure that decides by [q], never panics and raises a flag when it drops an entry *)
Lemma retain_st_flag {V} (f : bool -> N -> V -> trap (result (bool * bool))) (q : N -> V -> bool) (m : list (N * V)) :
  (forall s k v, In (k, v) m -> f s k v = Val (OkR (if q k v then true else s, negb (q k v)))) ->
  forall s, map_retain_st m f s =
            Val (OkR (filter (fun e => negb (q (fst e) (snd e))) m, s || existsb (fun e => q (fst e) (snd e)) m)).
Proof.
  induction m as [|[k v] r IH]; intros Hf s; cbn [map_retain_st filter existsb fst snd].
  - rewrite orb_false_r. reflexivity.
  - rewrite Hf by (left; reflexivity). cbn [bindR].
    rewrite IH by (intros s' k' v' Hin; apply Hf; right; exact Hin). cbn [bindR].
    destruct (q k v); cbn [negb orb]; rewrite ?orb_true_r; reflexivity.
Qed.

Lemma existsb_in x l : existsb (N.eqb x) l = true <-> In x l.
Proof. apply (Eqb.existsb_eqb_in N.eqb N.eqb_eq). Qed.

Lemma existsb_same x l l' : (forall h, In h l <-> In h l') -> existsb (N.eqb x) l = existsb (N.eqb x) l'.
Proof.
  intros H. apply eq_true_iff_eq. rewrite !existsb_in. apply H.
Qed.

Lemma forallb_same_elems {A} (f : A -> bool) l l' :
  (forall h, In h l <-> In h l') -> forallb f l = forallb f l'.
Proof.
  intros H. apply eq_true_iff_eq. rewrite !forallb_forall.
  split; intros E x Hx; apply E, H, Hx.
Qed.

Lemma forallb_ext_in {A} (f g : A -> bool) l : (forall x, In x l -> f x = g x) -> forallb f l = forallb g l.
Proof.
  induction l as [|a r IH]; intros H; cbn [forallb]; [reflexivity|].
  rewrite (H a (or_introl eq_refl)), IH; [reflexivity|]. intros x Hx. apply H. right. exact Hx.
Qed.

Lemma set_insert_in s k x : In x (set_insert s k) <-> In x s \/ x = k.
Proof.
  unfold set_insert, set_contains. destruct (existsb (N.eqb k) s) eqn:E.
  - apply existsb_in in E. split; [intros H; left; exact H | intros [H|H]; [exact H | subst; exact E]].
  - rewrite in_app_iff. cbn [In]. split; intros [H|H]; auto. destruct H as [H|[]]. right. symmetry. exact H.
Qed.

Lemma set_extend_in l : forall s x, In x (set_extend s l) <-> In x s \/ In x l.
Proof.
  unfold set_extend. induction l as [|a r IH]; intros s x; cbn [fold_left In].
  - tauto.
  - rewrite IH, set_insert_in. split; [intros [[H|H]|H] | intros [H|[H|H]]]; auto.
Qed.

(** look-up after a loop of per-key updates: a key outside the list is untouched, a key of the list
    was updated once *)
Lemma fold_look {S V} (look : S -> N -> V) (step : S -> N -> S) (g : N -> V -> V) :
  (forall s h x, look (step s h) x = if h =? x then g h (look s h) else look s x) ->
  forall l s x, NoDup l ->
  look (fold_left step l s) x = if existsb (N.eqb x) l then g x (look s x) else look s x.
Proof.
  intros Hs. induction l as [|h r IH]; intros s x ND; cbn [fold_left existsb]; [reflexivity|].
  inversion ND as [|a b Hn ND']; subst. rewrite (IH _ _ ND'), !Hs, (N.eqb_sym x h).
  destruct (N.eqb_spec h x) as [->|_]; [|reflexivity].
  destruct (existsb (N.eqb x) r) eqn:E; [apply existsb_in in E; contradiction | reflexivity].
Qed.

Lemma set_insert_nodup s k : NoDup s -> NoDup (set_insert s k).
Proof.
  intros ND. unfold set_insert, set_contains. destruct (existsb (N.eqb k) s) eqn:E; [exact ND|].
  eapply Permutation_NoDup; [apply Permutation_cons_append|]. constructor; [|exact ND].
  rewrite <- existsb_in, E. discriminate.
Qed.

Lemma set_extend_nodup l : forall s, NoDup s -> NoDup (set_extend s l).
Proof. unfold set_extend. induction l as [|a r IH]; intros s ND; cbn [fold_left]; [exact ND | apply IH, set_insert_nodup, ND]. Qed.

Lemma fold_keeps {S A B} (f : S -> B) (step : S -> A -> S) : (forall s a, f (step s a) = f s) ->
  forall l s, f (fold_left step l s) = f s.
Proof. intros H. induction l as [|a r IH]; intros s; cbn [fold_left]; [reflexivity | rewrite IH; apply H]. Qed.

Lemma key_in_iff {V} (m : list (N * V)) x : In x (map_keys m) <-> is_some_of (map_get m x) = true.
Proof.
  induction m as [|[k v] r IH]; cbn [map_keys map fst In map_get].
  - split; [intros [] | discriminate].
  - fold (map_keys r). rewrite IH. destruct (N.eqb_spec k x) as [E|E]; cbn [is_some_of]; intuition congruence.
Qed.

Lemma map_get_not_key {V} (m : list (N * V)) k : ~ In k (map_keys m) -> map_get m k = None.
Proof. rewrite key_in_iff. destruct (map_get m k); [intros []; reflexivity | reflexivity]. Qed.

Lemma in_map_get {V} (m : list (N * V)) k v : NoDup (map_keys m) -> In (k, v) m -> map_get m k = Some v.
Proof.
  induction m as [|[a w] r IH]; intros ND Hin; [destruct Hin|].
  cbn [map_keys map fst] in ND. inversion ND as [|a' l' Hn ND']; subst.
  cbn [map_get]. destruct Hin as [E|Hin].
  - injection E as -> ->. rewrite N.eqb_refl. reflexivity.
  - destruct (N.eqb_spec a k) as [->|_]; [|apply IH; assumption].
    exfalso. apply Hn, in_map_iff. exists (k, v). split; [reflexivity | exact Hin].
Qed.

(** [retain] by a test on the keys, and [remove] *)
Lemma filter_key_get {V} (m : list (N * V)) (g : N -> bool) x :
  map_get (filter (fun e => g (fst e)) m) x = if g x then map_get m x else None.
Proof.
  induction m as [|[k v] r IH]; cbn [filter map_get fst].
  - destruct (g x); reflexivity.
  - destruct (g k) eqn:K; cbn [map_get]; destruct (N.eqb_spec k x) as [->|_]; rewrite ?IH, ?K; reflexivity.
Qed.

Lemma keys_filter {V} (g : N -> bool) (m : list (N * V)) :
  map_keys (filter (fun e => g (fst e)) m) = filter g (map_keys m).
Proof.
  unfold map_keys. induction m as [|[k v] r IH]; cbn [filter map fst]; [reflexivity|].
  destruct (g k); cbn [map fst]; rewrite IH; reflexivity.
Qed.

Lemma map_get_insert {V} (m : list (N * V)) k v x :
  map_get (map_insert m k v) x = if k =? x then Some v else map_get m x.
Proof.
  unfold map_insert, map_remove. cbn [map_get]. destruct (k =? x) eqn:E; [reflexivity|].
  rewrite (filter_key_get m (fun a => negb (a =? k))), N.eqb_sym, E. reflexivity.
Qed.

Lemma keys_insert {V} (m : list (N * V)) k v :
  map_keys (map_insert m k v) = k :: filter (fun a => negb (a =? k)) (map_keys m).
Proof. unfold map_insert, map_remove. rewrite <- keys_filter. reflexivity. Qed.

Lemma keys_insert_nodup {V} (m : list (N * V)) k v : NoDup (map_keys m) -> NoDup (map_keys (map_insert m k v)).
Proof.
  intros ND. rewrite keys_insert. constructor; [|apply NoDup_filter, ND].
  rewrite filter_In, N.eqb_refl. intros [_ H]. discriminate H.
Qed.

Lemma map_get_perm {V} (l l' : list (N * V)) x :
  Permutation l l' -> NoDup (map_keys l) -> map_get l' x = map_get l x.
Proof.
  intros P. induction P as [|[k v] l l' P IH|[k1 v1] [k2 v2] l|l l' l'' P1 IH1 P2 IH2]; intros ND.
  - reflexivity.
  - cbn [map_get]. cbn [map_keys map fst] in ND. inversion ND; subst. rewrite IH by assumption. reflexivity.
  - cbn [map_get]. cbn [map_keys map fst] in ND. inversion ND as [|a b Hn ND']; subst.
    destruct (k1 =? x) eqn:E1, (k2 =? x) eqn:E2; try reflexivity.
    apply N.eqb_eq in E1. apply N.eqb_eq in E2. subst. exfalso. apply Hn. left. reflexivity.
  - rewrite IH2, IH1; [reflexivity | exact ND |].
    unfold map_keys. eapply Permutation_NoDup; [apply Permutation_map; exact P1 | exact ND].
Qed.

Lemma existsb_keys {V} (g : N -> bool) (m : list (N * V)) :
  existsb (fun e => g (fst e)) m = existsb g (map_keys m).
Proof. unfold map_keys. induction m as [|a r IH]; cbn [map existsb]; [reflexivity | rewrite IH; reflexivity]. Qed.

Lemma sum_from_debug l : forall acc, acc <= U64MAX ->
  sum_from Debug l acc = if acc + sum_N l <=? U64MAX then Val (acc + sum_N l) else Trap.
Proof.
  induction l as [|x r IH]; intros acc Ha; cbn [sum_from sum_N add_p].
  - rewrite N.add_0_r. destruct (acc <=? U64MAX) eqn:E; [reflexivity | lia].
  - destruct (acc + x <=? U64MAX) eqn:E; cbn [bindT].
    + apply N.leb_le in E. rewrite IH by exact E. rewrite N.add_assoc. reflexivity.
    + destruct (acc + (x + sum_N r) <=? U64MAX) eqn:E2; [lia | reflexivity].
Qed.

Lemma sum_from_release l : forall acc,
  sum_from Release l acc = Val (if l then acc else (acc + sum_N l) mod two64).
Proof.
  induction l as [|x r IH]; intros acc; cbn [sum_from sum_N add_p bindT]; [reflexivity|].
  rewrite IH. f_equal. unfold add_wrap. destruct r as [|y r'].
  - cbn [sum_N]. rewrite N.add_0_r. reflexivity.
  - rewrite N.add_mod_idemp_l by (unfold two64; lia). f_equal. lia.
Qed.

Lemma sum_N_perm l l' : Permutation l l' -> sum_N l = sum_N l'.
Proof. induction 1; cbn [sum_N]; lia. Qed.

Lemma sum_p_debug l : sum_p Debug l = if sum_N l <=? U64MAX then Val (sum_N l) else Trap.
Proof. unfold sum_p. rewrite sum_from_debug by (unfold U64MAX; lia). rewrite N.add_0_l. reflexivity. Qed.

Lemma sum_p_release l : sum_p Release l = Val (sum_N l mod two64).
Proof. unfold sum_p. rewrite sum_from_release, N.add_0_l. destruct l; reflexivity. Qed.

(** [iter.sum::<u64>()] over the same values in another order: the same value, the same wrap, the
    same panic *)
Lemma sum_p_perm prof l l' : Permutation l l' -> sum_p prof l = sum_p prof l'.
Proof.
  intros P. pose proof (sum_N_perm l l' P) as E. destruct prof.
  - rewrite !sum_p_debug, E. reflexivity.
  - rewrite !sum_p_release, E. reflexivity.
Qed.

Lemma sum_p_ok prof l : sum_N l <= U64MAX -> sum_p prof l = Val (sum_N l).
Proof.
  intros H. destruct prof.
  - rewrite sum_p_debug. destruct (N.leb_spec (sum_N l) U64MAX); [reflexivity | lia].
  - rewrite sum_p_release. f_equal. apply N.mod_small. unfold two64, U64MAX in *. lia.
Qed.
