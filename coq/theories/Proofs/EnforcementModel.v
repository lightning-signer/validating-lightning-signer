(** The request handlers of Model/Enforcement.v, for every filter and both build profiles: what
    one request can do to the two images of a channel ([eff]) and, from that, to slot and ledgers
    ([gstep_single]); the two validating composites as sequences of two requests. *)
From VLS Require Import Base.U64 Model.Enforcement.
From Coq Require Import ZifyBool ZifyN ZifyNat.

Local Open Scope N_scope.

Lemma grun_app warn prof sg ops1 ops2 :
  grun warn prof sg (ops1 ++ ops2) = grun warn prof (grun warn prof sg ops1) ops2.
Proof.
  revert sg. induction ops1 as [|o r IH]; intros sg; cbn [grun app]; [reflexivity | apply IH].
Qed.

(** every match in the goal is taken apart; for facts that hold branch by branch *)
Ltac cases := repeat match goal with
  | |- context [match ?x with _ => _ end] => destruct x eqn:?
  end.

Section Handlers.
Variable warn : tag -> bool.
Variable prof : profile.

Lemma gstep_eq s g o :
  gstep warn prof (s, g) o =
  (let r := snd (step warn prof s o) in
   ((fst (step warn prof s o),
     mkG (opt_cons (validates warn prof s o) (validated g))
         (opt_cons (o_secret r) (disclosed g))
         (opt_cons (o_hsig r) (hsigned g))
         (opt_cons (o_cpsig r) (cpsigned g))
         (match o, st r with
          | ValidateRevocation rn p _ _, Ok => (rn, p) :: cprevoked g
          | _, _ => cprevoked g
          end)), r)).
Proof. unfold gstep. destruct (step warn prof s o). reflexivity. Qed.

Lemma gstep_slot sg o : fst (fst (gstep warn prof sg o)) = fst (step warn prof (fst sg) o).
Proof. destruct sg. rewrite gstep_eq. reflexivity. Qed.

Lemma gstep_out sg o : snd (gstep warn prof sg o) = snd (step warn prof (fst sg) o).
Proof. destruct sg. rewrite gstep_eq. reflexivity. Qed.

Definition hget_point_old (ch : chan) (n : N) : chan * outp :=
  (ch, if negb (point_ok (mem ch) n) then refused
       else if 2 <=? n then
         match secret_res warn prof (mem ch) (n - 2) with
         | None => refused
         | Some Trap => aborted
         | Some (Val k) => ok_ps n (Some k)
         end
       else ok_point n).

Definition hrevoke (ch : chan) (n : N) (py : bool) : chan * outp :=
  tbind (match add_checked n 1 with Some v => Val v | None => Trap end) (ch, refused) (fun n1 =>
    let '(ch', o) := do_revoke warn prof ch n1 py in
    match st o, o_secret o with
    | Ok, None => (ch', refused)
    | _, _ => (ch', o)
    end).

Definition handler (o : op) (ch : chan) : chan * outp :=
  match o with
  | ValidateHolder n c sg pl => do_validate warn prof ch n c sg pl
  | Revoke n py => do_revoke warn prof ch n py
  | Activate => do_activate ch
  | GetPoint n => do_get_point ch n
  | GetSecret n => do_get_secret warn prof ch n
  | GetSecretOrNone n => do_get_secret_or_none prof ch n
  | SignHolder n => do_sign_holder warn prof ch n
  | SignRecovery => do_sign_recovery prof ch
  | SignRedundant n c pl => do_sign_redundant warn prof ch n c pl
  | MutualClose ok => do_mutual_close ch ok
  | SignCp n pt c pl => do_sign_cp warn prof ch n pt c pl
  | ValidateRevocation r p sec chn => do_revocation warn prof ch r p sec chn
  | HValidateOld n c sg pl py =>
      and_then (fun ch => do_validate warn prof ch n c sg pl) (fun ch => do_revoke warn prof ch n py) ch
  | HValidateNew n c sg pl =>
      and_then (fun ch => do_validate warn prof ch n c sg pl)
               (fun ch => if 1 <=? n
                          then tbind (add_p prof n 1) (ch, aborted) (fun n1 => do_get_point ch n1)
                          else do_activate ch) ch
  | HGetPointOld n => hget_point_old ch n
  | HRevoke n py => hrevoke ch n py
  | Setup | SetupRefused => (ch, refused)
  | Restart => (mkC (disk ch) (disk ch), ok0)
  end.

Lemma step0_ready o ch :
  step0 warn prof (Ready ch) o = (Ready (fst (handler o ch)), snd (handler o ch)).
Proof.
  destruct o; cbn [step0 on_ready handler]; try (destruct (_ : chan * outp); reflexivity); try reflexivity.
  unfold hget_point_old. destruct (negb _); [reflexivity|]. destruct (2 <=? n); [|reflexivity].
  destruct (secret_res warn prof (mem ch) (n - 2)) as [[|]|]; reflexivity.
Qed.

Definition settle (res : chan * outp) : slot :=
  match st (snd res) with
  | Abort => crash (Ready (fst res))
  | _ => Ready (fst res)
  end.

Lemma step_ready o ch :
  step warn prof (Ready ch) o = (settle (handler o ch), snd (handler o ch)).
Proof. unfold step, settle. rewrite step0_ready. destruct (st (snd (handler o ch))); reflexivity. Qed.

Lemma gstep_stub g o :
  fst (gstep warn prof (Stub, g) o) =
  (match o with Setup => Ready (persist fresh_estate) | _ => Stub end, g).
Proof.
  destruct g. destruct o; try reflexivity; cbn; destruct ((n =? 0) || (n =? 1)); reflexivity.
Qed.

(** a slot that is set up stays set up and a stub answers without touching a ledger: a slot that is
    a stub after a history was one all along, and its ledgers are as they were *)
Lemma gstep_to_stub sg o : fst (fst (gstep warn prof sg o)) = Stub -> fst (gstep warn prof sg o) = sg.
Proof.
  destruct sg as [[|ch] g].
  - rewrite gstep_stub. destruct o; (discriminate || reflexivity).
  - rewrite gstep_slot. cbn [fst]. rewrite step_ready. unfold settle. cbn [fst crash]. destruct (st _); discriminate.
Qed.

Lemma grun_to_stub ops : forall sg, fst (grun warn prof sg ops) = Stub -> grun warn prof sg ops = sg.
Proof.
  induction ops as [|o ops IH]; intros sg H; cbn [grun] in *; [reflexivity|].
  pose proof (IH _ H) as E. rewrite E in *. apply gstep_to_stub, H.
Qed.

Lemma stub_reply o :
  let r := snd (step warn prof Stub o) in
  st r <> Abort /\ o_secret r = None /\ o_hsig r = None /\ o_cpsig r = None.
Proof.
  destruct o; cbn; try (repeat split; congruence);
    destruct ((n =? 0) || (n =? 1)); cbn; repeat split; congruence.
Qed.

Inductive rel_cases (e : estate) (n : N) : outp -> Prop :=
| rel_ref : rel_cases e n refused
| rel_abort : rel_cases e n aborted
| rel_first n1 : n = 0 -> rel_cases e n (ok_ps n1 None)
| rel_sec n1 k : 1 <= n -> secret_res warn prof e (n - 1) = Some (Val k) -> rel_cases e n (ok_ps n1 (Some k)).

Lemma release_cases e n : rel_cases e n (release warn prof e n).
Proof. unfold release, tbind. cases; try constructor; try lia; assumption. Qed.

(** the point [n + 1] is within reach of the advanced counter and the secret [n - 1] is two
    below it *)
Lemma release_after_advance e c : release warn prof (advance_h e c) (next_h e) <> refused.
Proof.
  unfold release, tbind.
  destruct (add_p prof (next_h e) 1) as [n1|] eqn:Ea; [|cbn; discriminate].
  apply add_p_upper in Ea.
  unfold point_ok, secret_res, sat_add, advance_h; cbn [next_h].
  replace (n1 <=? next_h e + 1 + 1) with true by lia. cbn [negb].
  destruct (1 <=? next_h e) eqn:E1; [|cbn; discriminate].
  replace (next_h e + 1 <? N.min (next_h e - 1 + 2) U64MAX) with false by lia.
  cbn [andb]. destruct (sub_p prof _ _); cbn; discriminate.
Qed.

Inductive dv_cases (ch : chan) (n : N) (c : content) : sigq -> bool -> chan * outp -> Prop :=
| dv_ref sg pl : dv_cases ch n c sg pl (ch, refused)
| dv_abort sg pl : dv_cases ch n c sg pl (ch, aborted)
| dv_retry : dv_cases ch n c SGood true (ch, ok0)
| dv_new :
    n = next_h (mem ch) -> validate_holder_state warn prof (mem ch) n c = Some true ->
    dv_cases ch n c SGood true (persist (set_nxt_h (mem ch) (Some c)), ok0).

Lemma do_validate_cases ch n c sg pl : dv_cases ch n c sg pl (do_validate warn prof ch n c sg pl).
Proof.
  unfold do_validate, point_ok.
  destruct (n <=? next_h (mem ch) + 1) eqn:Ep; [|constructor].
  destruct pl; [|constructor]. cbn [negb].
  destruct (validate_holder_state warn prof (mem ch) n c) as [[|]|] eqn:Ev; try constructor.
  destruct sg; try constructor.
  destruct (n =? next_h (mem ch)) eqn:En; constructor; (assumption || lia).
Qed.

Inductive dr_cases (ch : chan) (n : N) (py : bool) : chan * outp -> Prop :=
| dr_ref : dr_cases ch n py (ch, refused)
| dr_abort : dr_cases ch n py (ch, aborted)
| dr_past n1 s :
    n <> next_h (mem ch) -> rel_cases (mem ch) n (ok_ps n1 s) -> dr_cases ch n py (ch, ok_ps n1 s)
| dr_none :
    n = next_h (mem ch) -> nxt_h (mem ch) = None -> dr_cases ch n py (ch, ok_ps n None)
| dr_lost c : py = true -> dr_cases ch n py (keep ch (advance_h (mem ch) c), aborted)
| dr_adv c n1 s :
    py = true -> n = next_h (mem ch) -> nxt_h (mem ch) = Some c ->
    closed (mem ch) && perr warn TRevokeNotClosed = false ->
    rel_cases (advance_h (mem ch) c) n (ok_ps n1 s) ->
    dr_cases ch n py (persist (advance_h (mem ch) c), ok_ps n1 s).

Lemma do_revoke_cases ch n py : dr_cases ch n py (do_revoke warn prof ch n py).
Proof.
  unfold do_revoke. destruct (negb (n =? next_h (mem ch))) eqn:En.
  - destruct (release_cases (mem ch) n); constructor; try lia; constructor; assumption.
  - assert (Hn : n = next_h (mem ch)) by lia.
    destruct (closed (mem ch) && perr warn TRevokeNotClosed) eqn:Ec; [constructor|].
    destruct (nxt_h (mem ch)) as [c|] eqn:Ex.
    + destruct py; [|constructor]. cbn [negb].
      pose proof (release_after_advance (mem ch) c) as Hr. rewrite <- Hn in Hr.
      destruct (release_cases (advance_h (mem ch) c) n); cbn [ok_ps st]; try congruence;
        constructor; try assumption; constructor; assumption.
    + cases; constructor; assumption.
Qed.

(** the branch of [do_revoke] that keeps an advanced memory image over the old store is reached
    by an arithmetic abort only *)
Lemma do_revoke_advances ch c :
  nxt_h (mem ch) = Some c -> closed (mem ch) && perr warn TRevokeNotClosed = false ->
  st (snd (do_revoke warn prof ch (next_h (mem ch)) true)) <> Refused.
Proof.
  intros Hx Hc. unfold do_revoke. rewrite N.eqb_refl, Hc, Hx. cbn [negb].
  pose proof (release_after_advance (mem ch) c) as Hr.
  destruct (release_cases (advance_h (mem ch) c) (next_h (mem ch))); cbn; congruence.
Qed.

(** an accepted revocation that returns no secret becomes a refusal and did not advance: an
    advancing revocation of a number above 0 always returns one *)
Lemma hrevoke_cases ch n py :
  hrevoke ch n py = (ch, refused) \/
  n + 1 <= U64MAX /\ hrevoke ch n py = do_revoke warn prof ch (n + 1) py.
Proof.
  unfold hrevoke, tbind, add_checked. destruct (n + 1 <=? U64MAX) eqn:Ea; [|auto].
  destruct (do_revoke_cases ch (n + 1) py) as [| |? s ? ?| | |? ? s ? ? ? ? Hr];
    try destruct s; cbn [st o_secret refused aborted ok_ps]; auto; try (right; split; [lia | reflexivity]).
  inversion Hr; lia.
Qed.

Lemma do_get_secret_or_none_eq ch n :
  do_get_secret_or_none prof ch n =
  (ch, match secret_res strict prof (mem ch) n with
       | None => ok0
       | Some Trap => aborted
       | Some (Val k) => mkO Ok None (Some k) None None
       end).
Proof.
  unfold do_get_secret_or_none, secret_res, perr, strict. cbn [negb]. rewrite andb_true_r.
  destruct (next_h (mem ch) <? sat_add n 2); [reflexivity|]. destruct (sub_p prof _ _); reflexivity.
Qed.

Definition single (o : op) : Prop :=
  match o with HValidateOld _ _ _ _ _ | HValidateNew _ _ _ _ => False | _ => True end.

(** [acc e o e' r]: the single request [o], accepted with reply [r], takes the memory image [e]
    to [e'] - the accepting paths of the handlers, each with those of the checks it has passed that an
    invariant uses *)
Inductive acc (e : estate) : op -> estate -> outp -> Prop :=
| acc_retry n c : acc e (ValidateHolder n c SGood true) e ok0
| acc_pend c : acc e (ValidateHolder (next_h e) c SGood true) (set_nxt_h e (Some c)) ok0
| acc_past n py n1 s :
    n <> next_h e -> rel_cases e n (ok_ps n1 s) -> acc e (Revoke n py) e (ok_ps n1 s)
| acc_none py : nxt_h e = None -> acc e (Revoke (next_h e) py) e (ok_ps (next_h e) None)
| acc_adv c n1 s :
    nxt_h e = Some c -> closed e && perr warn TRevokeNotClosed = false ->
    rel_cases (advance_h e c) (next_h e) (ok_ps n1 s) ->
    acc e (Revoke (next_h e) true) (advance_h e c) (ok_ps n1 s)
| acc_activate c : next_h e = 0 -> nxt_h e = Some c -> acc e Activate (advance_h e c) (ok_point 1)
| acc_point n : acc e (GetPoint n) e (ok_point n)
| acc_secret n k :
    secret_res warn prof e n = Some (Val k) -> acc e (GetSecret n) e (mkO Ok None (Some k) None None)
| acc_no_secret n : acc e (GetSecretOrNone n) e ok0
| acc_secret_or_none n k :
    secret_res strict prof e n = Some (Val k) -> acc e (GetSecretOrNone n) e (mkO Ok None (Some k) None None)
| acc_sign_holder n n1 c :
    add_p prof n 1 = Val n1 -> negb (n1 =? next_h e) && perr warn TOther = false -> cur_h e = Some c ->
    acc e (SignHolder n) (set_closed e) (mkO Ok None None (Some (n, c)) None)
| acc_sign_recovery n c :
    cur_h e = Some c -> sub_p prof (next_h e) 1 = Val n ->
    acc e SignRecovery (set_closed e) (mkO Ok None None (Some (n, c)) None)
| acc_sign_redundant n c :
    validate_holder_state warn prof e n c = Some true ->
    acc e (SignRedundant n c true) (set_closed e) (mkO Ok None None (Some (n, c)) None)
| acc_close : acc e (MutualClose true) (set_closed e) ok0
| acc_sign_cp n pt c n1 n2 e' :
    add_p prof n 1 = Val n1 -> validate_cp_state warn e n n1 n2 pt c = true ->
    cp_commit_guard warn e n1 = true -> set_cp_commit e n1 pt c = Some e' ->
    acc e (SignCp n pt c true) e' (mkO Ok None None None (Some (n, pt, c)))
| acc_revocation r p sec chn r1 r2 secs e' :
    add_p prof r 1 = Val r1 -> (if r1 =? next_c e then Val 0 else add_p prof r 2) = Val r2 ->
    revocation_checks warn e r r1 r2 p = true -> cp_revoke_guard warn e r1 = true ->
    set_cp_revoke e r1 secs = Some e' -> acc e (ValidateRevocation r p sec chn) e' ok0
| acc_hpoint n : acc e (HGetPointOld n) e (ok_point n)
| acc_hpoint_secret n k :
    secret_res warn prof e (n - 2) = Some (Val k) -> acc e (HGetPointOld n) e (ok_ps n (Some k))
| acc_hrevoke n py e' r : n + 1 <= U64MAX -> acc e (Revoke (n + 1) py) e' r -> acc e (HRevoke n py) e' r
| acc_restart : acc e Restart e ok0.
Hint Constructors acc : core.

Lemma acc_ok e o e' r : acc e o e' r -> st r = Ok.
Proof. intros H. induction H; auto. Qed.

(** what a single request does to the two images of a channel, and its reply *)
Inductive eff (ch : chan) (o : op) : chan * outp -> Prop :=
| eff_ok r : acc (mem ch) o (mem ch) r -> eff ch o (ch, r)
| eff_ref : eff ch o (ch, refused)
| eff_abort : eff ch o (ch, aborted)
| eff_write e r : acc (mem ch) o e r -> eff ch o (persist e, r)
| eff_lost e : eff ch o (keep ch e, aborted)
| eff_restart : o = Restart -> eff ch o (mkC (disk ch) (disk ch), ok0).
Hint Constructors eff : core.

Lemma single_eff o ch : single o -> eff ch o (handler o ch).
Proof.
  intros Hp.
  assert (Hr : forall n py, eff ch (Revoke n py) (do_revoke warn prof ch n py))
    by (intros n py; destruct (do_revoke_cases ch n py) as [| | | -> | |? ? ? -> ->]; auto).
  destruct o; cbn [handler]; try contradiction; try apply Hr; auto.
  - destruct (do_validate_cases ch n c sig_ok pol_ok) as [| | | ->]; auto.
  - unfold do_activate. cases; auto. apply eff_write, acc_activate; [lia | assumption].
  - unfold do_get_point. cases; auto.
  - unfold do_get_secret. cases; auto.
  - rewrite do_get_secret_or_none_eq. cases; auto.
  - unfold do_sign_holder, tbind. cases; auto. eapply eff_write, acc_sign_holder; eassumption.
  - unfold do_sign_recovery. cases; auto.
  - unfold do_sign_redundant. cases; auto. destruct pol_ok; [auto | discriminate].
  - unfold do_mutual_close. destruct ok; auto.
  - unfold do_sign_cp, tbind. cases; auto. destruct pol_ok; [|discriminate].
    eapply eff_write, acc_sign_cp; try eassumption; apply negb_false_iff; eassumption.
  - unfold do_revocation, tbind. cases; auto; eapply eff_write, acc_revocation; try eassumption; apply negb_false_iff; eassumption.
  - unfold hget_point_old. cases; auto.
  - destruct (hrevoke_cases ch n pay_ok) as [-> | [Hn ->]]; [auto|]. destruct (Hr (n + 1) pay_ok); auto; discriminate.
Qed.

Definition validated_by (o : op) : option (N * content) :=
  match o with ValidateHolder n c _ _ => Some (n, c) | _ => None end.

Lemma validates_single o ch :
  single o ->
  validates warn prof (Ready ch) o = match st (snd (handler o ch)) with Ok => validated_by o | _ => None end.
Proof. destruct o; intros []; try reflexivity; cbn [validates handler validated_by]; destruct (st _); reflexivity. Qed.

Lemma step_restart s : fst (step warn prof s Restart) = crash s.
Proof. destruct s; reflexivity. Qed.

Lemma crash_ready ch : crash (Ready ch) = Ready ch <-> mem ch = disk ch.
Proof. destruct ch as [m d]; cbn [crash mem disk]. split; [intros [= <-] | intros ->]; reflexivity. Qed.

Inductive gstep_cases (s : slot) (g : ghost) (o : op) : (slot * ghost) * outp -> Prop :=
| gs_quiet r : r = refused \/ r = aborted -> gstep_cases s g o ((s, g), r)
| gs_stub :
    s = Stub ->
    gstep_cases s g o ((match o with Setup => Ready (persist fresh_estate) | _ => Stub end, g),
                       snd (step warn prof Stub o))
| gs_ok ch ch' r :
    s = Ready ch -> mem ch' = disk ch' -> acc (mem ch) o (mem ch') r ->
    gstep_cases s g o
      ((Ready ch',
        mkG (opt_cons (validated_by o) (validated g))
            (opt_cons (o_secret r) (disclosed g))
            (opt_cons (o_hsig r) (hsigned g))
            (opt_cons (o_cpsig r) (cpsigned g))
            (match o with ValidateRevocation rn p _ _ => (rn, p) :: cprevoked g | _ => cprevoked g end)), r).

Lemma gstep_single s g o :
  crash s = s -> single o -> gstep_cases s g o (gstep warn prof (s, g) o).
Proof.
  intros Hd Hp. destruct s as [|ch].
  - rewrite (surjective_pairing (gstep warn prof (Stub, g) o)), gstep_stub, gstep_out. apply gs_stub. reflexivity.
  - rewrite gstep_eq, step_ready, (validates_single o ch Hp). cbv zeta. unfold settle.
    pose proof Hd as Hm. apply crash_ready in Hm.
    destruct (single_eff o ch Hp) as [r H| | |e r H|e| ->]; cbn [fst snd];
      try pose proof (acc_ok _ _ _ _ H) as Hok; rewrite ?Hok; cbn [st refused aborted ok0]; rewrite ?Hd.
    1, 4: apply (gs_ok (Ready ch) g o ch _ r eq_refl); [assumption || reflexivity | exact H].
    (* a restart reads back what the memory image is *)
    4: apply (gs_ok (Ready ch) g Restart ch (mkC (disk ch) (disk ch)) ok0 eq_refl eq_refl); cbn [mem]; rewrite <- Hm;
       apply acc_restart.
    (* nothing is added to a ledger, and what is left of an advance that trapped is dropped with the crash *)
    3: replace (crash (Ready (keep ch e))) with (Ready ch)
         by (destruct ch as [m d]; cbn [mem disk] in Hm; subst; reflexivity).
    all: replace (mkG _ _ _ _ _) with g by (destruct g, o; reflexivity); apply gs_quiet; auto.
Qed.

Lemma gstep_quiet sg o :
  crash (fst sg) = fst sg -> single o -> st (snd (gstep warn prof sg o)) <> Ok -> fst (gstep warn prof sg o) = sg.
Proof.
  destruct sg as [s g]. intros Hd Hp. destruct (gstep_single s g o Hd Hp) as [r _| -> | ch ch' r _ _ Hok]; cbn [fst snd]; try congruence.
  - destruct o; cbn; congruence.
  - apply acc_ok in Hok. congruence.
Qed.

Lemma step_quiet s o :
  crash s = s -> single o -> st (snd (step warn prof s o)) <> Ok -> fst (step warn prof s o) = s.
Proof.
  intros Hd Hp Hx. rewrite <- (gstep_slot (s, ghost0)), gstep_quiet; try assumption; [reflexivity|].
  rewrite gstep_out. exact Hx.
Qed.

Lemma single_durable s o :
  single o -> crash s = s -> crash (fst (step warn prof s o)) = fst (step warn prof s o).
Proof.
  intros Hp Hd. rewrite <- (gstep_slot (s, ghost0)).
  destruct (gstep_single s ghost0 o Hd Hp) as [r _| -> |ch ch' r _ Hm _]; cbn [fst];
    [exact Hd | destruct o; reflexivity | apply crash_ready, Hm].
Qed.

Lemma gstep_HValidateOld sg n c sq pl py :
  let r1 := gstep warn prof sg (ValidateHolder n c sq pl) in
  gstep warn prof sg (HValidateOld n c sq pl py) =
  match st (snd r1) with Ok => gstep warn prof (fst r1) (Revoke n py) | _ => r1 end.
Proof.
  destruct sg as [[|ch] g]; [reflexivity|]. cbv zeta.
  rewrite !gstep_eq, !step_ready. cbn [handler validates fst snd]. unfold and_then.
  destruct (do_validate_cases ch n c sq pl); cbn [st snd fst refused aborted ok0 settle];
    rewrite ?gstep_eq, ?step_ready; reflexivity.
Qed.

Lemma gstep_HValidateNew sg n c sq pl :
  let r1 := gstep warn prof sg (ValidateHolder n c sq pl) in
  crash (fst sg) = fst sg ->
  gstep warn prof sg (HValidateNew n c sq pl) =
  match st (snd r1) with
  | Ok => if 1 <=? n
          then match add_p prof n 1 with
               | Val n1 => gstep warn prof (fst r1) (GetPoint n1)
               | Trap => (fst r1, aborted)
               end
          else gstep warn prof (fst r1) Activate
  | _ => r1
  end.
Proof.
  destruct sg as [[|ch] g]; [reflexivity|]. cbv zeta. cbn [fst]. intros Hd.
  rewrite !gstep_eq, !step_ready. cbn [handler validates fst snd]. unfold and_then.
  destruct (do_validate_cases ch n c sq pl); cbn [st snd fst refused aborted ok0 settle];
    try reflexivity; (destruct (1 <=? n); [destruct (add_p prof n 1)|]);
    rewrite ?gstep_eq, ?step_ready; try reflexivity.
  unfold settle. cbn [tbind snd fst st aborted]. rewrite Hd. reflexivity.
Qed.

End Handlers.
