(** Three-way comparisons that are total orders (closed under lexicographic products and lists), and
    the insertion sort by the boolean order of such a comparison.  Instances: the output orders of
    the commitment and closing transactions, the key order of the kvv stores ([kcmp_ok]), the
    outpoint order of the tracker's sets ([ocmp_ok]). *)
From Coq Require Import List NArith Permutation.
Import ListNotations.

Record cmp_ok {A : Type} (cmp : A -> A -> comparison) : Prop := mkCmpOk {
  cmp_eq : forall a b, cmp a b = Eq -> a = b;
  cmp_opp : forall a b, cmp b a = CompOpp (cmp a b);
  cmp_lt_trans : forall a b c, cmp a b = Lt -> cmp b c = Lt -> cmp a c = Lt;
}.
Arguments cmp_eq {A cmp}. Arguments cmp_opp {A cmp}. Arguments cmp_lt_trans {A cmp}.

Definition leb_of {A : Type} (cmp : A -> A -> comparison) (a b : A) : bool :=
  match cmp a b with Gt => false | _ => true end.

Section Cmp.
  Context {A : Type} {cmp : A -> A -> comparison} (C : cmp_ok cmp).

  Lemma cmp_refl a : cmp a a = Eq.
  Proof. pose proof (cmp_opp C a a) as H. destruct (cmp a a); (reflexivity || discriminate). Qed.
  Lemma cmp_eq_iff a b : cmp a b = Eq <-> a = b.
  Proof. split; [apply (cmp_eq C) | intros ->; apply cmp_refl]. Qed.
  Lemma cmp_gt_lt a b : cmp a b = Gt -> cmp b a = Lt.
  Proof. intros H. rewrite (cmp_opp C), H. reflexivity. Qed.
  Lemma cmp_lt_gt a b : cmp a b = Lt -> cmp b a = Gt.
  Proof. intros H. rewrite (cmp_opp C), H. reflexivity. Qed.

  (* through an Eq the comparison passes on unchanged; Lt composes with Lt *)
  Lemma cmp_chain a b c : cmp a b <> Gt -> cmp b c <> Gt ->
    cmp a c = match cmp a b with Eq => cmp b c | r => r end.
  Proof.
    destruct (cmp a b) eqn:E1; [intros _ _ | intros _ | congruence].
    - rewrite (cmp_eq C a b E1). reflexivity.
    - destruct (cmp b c) eqn:E2; [intros _ | intros _ | congruence].
      + rewrite <- (cmp_eq C b c E2). exact E1.
      + exact (cmp_lt_trans C a b c E1 E2).
  Qed.
End Cmp.

Section Leb.
  Context {A : Type} (cmp : A -> A -> comparison) (C : cmp_ok cmp).
  Local Notation leb := (leb_of cmp).

  Lemma leb_total a b : leb a b = false -> leb b a = true.
  Proof. unfold leb_of. rewrite (cmp_opp C a b). destruct (cmp a b); cbn [CompOpp]; congruence. Qed.

  Lemma leb_antisym a b : leb a b = true -> leb b a = true -> a = b.
  Proof.
    unfold leb_of. rewrite (cmp_opp C a b). intros H1 H2.
    destruct (cmp a b) eqn:E; cbn [CompOpp] in *; try discriminate. apply (cmp_eq C). exact E.
  Qed.

  Lemma leb_trans a b c : leb a b = true -> leb b c = true -> leb a c = true.
  Proof.
    unfold leb_of. intros H1 H2. rewrite (cmp_chain C a b c) by (intros E; rewrite E in *; discriminate).
    destruct (cmp a b); [exact H2 | reflexivity | discriminate].
  Qed.
End Leb.

Lemma N_cmp_ok : cmp_ok N.compare.
Proof.
  split.
  - apply N.compare_eq.
  - intros a b. apply N.compare_antisym.
  - intros a b c. rewrite !N.compare_lt_iff. apply N.lt_trans.
Qed.

Definition cmp_then {A B C : Type} (f : A -> B) (g : A -> C)
    (cb : B -> B -> comparison) (cc : C -> C -> comparison) (a b : A) : comparison :=
  match cb (f a) (f b) with Eq => cc (g a) (g b) | c => c end.

Lemma cmp_then_ok {A B C : Type} (f : A -> B) (g : A -> C) cb cc :
  (forall a b, f a = f b -> g a = g b -> a = b) ->
  cmp_ok cb -> cmp_ok cc -> cmp_ok (cmp_then f g cb cc).
Proof.
  intros Hfg Hb Hc. unfold cmp_then. split.
  - intros a b. destruct (cb (f a) (f b)) eqn:E; try discriminate.
    intros H. apply Hfg; [apply (cmp_eq Hb); exact E|apply (cmp_eq Hc); exact H].
  - intros a b. rewrite (cmp_opp Hb (f a) (f b)).
    destruct (cb (f a) (f b)); cbn [CompOpp]; [apply (cmp_opp Hc)|reflexivity|reflexivity].
  - intros a b c H1 H2.
    rewrite (cmp_chain Hb (f a) (f b) (f c)) by (intros E; rewrite E in *; discriminate).
    destruct (cb (f a) (f b)); [|reflexivity|discriminate].
    destruct (cb (f b) (f c)); [|reflexivity|discriminate]. exact (cmp_lt_trans Hc _ _ _ H1 H2).
Qed.

(** the lexicographic order on lists ([<[T]>::cmp]) *)
Section Lex.
  Context {A : Type} (cmp : A -> A -> comparison).

  Fixpoint lex_cmp (a b : list A) : comparison :=
    match a, b with
    | [], [] => Eq
    | [], _ => Lt
    | _, [] => Gt
    | x :: a', y :: b' => match cmp x y with Eq => lex_cmp a' b' | c => c end
    end.

  Lemma lex_cmp_ok : cmp_ok cmp -> cmp_ok lex_cmp.
  Proof.
    intros C. split.
    - induction a as [|x a IH]; intros [|y b] H; cbn [lex_cmp] in H; try discriminate; [reflexivity|].
      destruct (cmp x y) eqn:E; try discriminate. rewrite (cmp_eq C x y E), (IH b H). reflexivity.
    - induction a as [|x a IH]; intros [|y b]; cbn [lex_cmp CompOpp]; try reflexivity.
      rewrite (cmp_opp C x y). destruct (cmp x y); cbn [CompOpp]; [apply IH|reflexivity|reflexivity].
    - induction a as [|x a IH]; intros [|y b] [|z c] H1 H2; cbn [lex_cmp] in *;
        try discriminate; try reflexivity.
      rewrite (cmp_chain C x y z) by (intros E; rewrite E in *; discriminate).
      destruct (cmp x y); [|reflexivity|discriminate].
      destruct (cmp y z); [|reflexivity|discriminate]. exact (IH _ _ H1 H2).
  Qed.
End Lex.

Section ISort.
  Context {A : Type} (leb : A -> A -> bool).

  Fixpoint ins (x : A) (l : list A) : list A :=
    match l with
    | [] => [x]
    | y :: r => if leb x y then x :: l else y :: ins x r
    end.
  Definition isort (l : list A) : list A := fold_right ins [] l.

  Lemma ins_perm x l : Permutation (ins x l) (x :: l).
  Proof.
    induction l as [|y r IH]; cbn [ins]; [reflexivity|].
    destruct (leb x y); [reflexivity|]. rewrite IH. apply perm_swap.
  Qed.

  Lemma isort_perm l : Permutation (isort l) l.
  Proof.
    induction l as [|x l IH]; cbn [isort fold_right]; [reflexivity|].
    fold (isort l). rewrite ins_perm. constructor. exact IH.
  Qed.

  Lemma ins_Forall (P : A -> Prop) x l : P x -> Forall P l -> Forall P (ins x l).
  Proof.
    intros Hx. induction 1 as [|y r Hy Hr IH]; cbn [ins].
    - constructor; [exact Hx|constructor].
    - destruct (leb x y); constructor; auto.
  Qed.

  Fixpoint sorted (l : list A) : Prop :=
    match l with
    | [] => True
    | x :: r => Forall (fun y => leb x y = true) r /\ sorted r
    end.

  Lemma ins_head x l : sorted (x :: l) -> ins x l = x :: l.
  Proof.
    destruct l as [|y r]; cbn [sorted ins]; [reflexivity|].
    intros [H _]. inversion H as [|? ? Hy _]; subst. rewrite Hy. reflexivity.
  Qed.
End ISort.

Section ISortCmp.
  Context {A : Type} (cmp : A -> A -> comparison) (C : cmp_ok cmp).
  Local Notation leb := (leb_of cmp).

  Lemma ins_sorted x : forall l, sorted leb l -> sorted leb (ins leb x l).
  Proof.
    induction l as [|y r IH]; intros H; cbn [ins sorted] in *.
    - split; [constructor|exact I].
    - destruct H as [Hy Hr]. destruct (leb x y) eqn:E; cbn [sorted].
      + split; [|split; assumption]. constructor; [exact E|].
        eapply Forall_impl; [|exact Hy]. intros z Hz. eapply (leb_trans cmp C); eassumption.
      + split; [|apply IH; exact Hr]. apply ins_Forall; [apply (leb_total cmp C); exact E|exact Hy].
  Qed.

  Lemma isort_sorted l : sorted leb (isort leb l).
  Proof. induction l as [|x l IH]; cbn [isort fold_right]; [exact I|]. apply ins_sorted. exact IH. Qed.

  Lemma sorted_perm_eq : forall l l', sorted leb l -> sorted leb l' -> Permutation l l' -> l = l'.
  Proof.
    induction l as [|x r IH]; intros [|y r'] Hs Hs' P.
    - reflexivity.
    - apply Permutation_nil in P. discriminate.
    - apply Permutation_sym, Permutation_nil in P. discriminate.
    - destruct Hs as [Hx Hr], Hs' as [Hy Hr'].
      assert (E : x = y).
      { (* each head occurs in the other list, at its head or below it *)
        destruct (Permutation_in x P (or_introl eq_refl)) as [E|I1]; [symmetry; exact E|].
        destruct (Permutation_in y (Permutation_sym P) (or_introl eq_refl)) as [E|I2]; [exact E|].
        rewrite Forall_forall in Hx, Hy. apply (leb_antisym cmp C); auto. }
      subst y. f_equal. apply IH; [exact Hr|exact Hr'|]. exact (Permutation_cons_inv P).
  Qed.

  Lemma isort_of_perm l l' : Permutation l l' -> isort leb l = isort leb l'.
  Proof.
    intros P. apply sorted_perm_eq; try apply isort_sorted.
    rewrite !isort_perm. exact P.
  Qed.
End ISortCmp.
