(** Proofs about Model/Sweep.v: what an accepted sweep / second-level HTLC signing request
    implies. *)
From VLS Require Import Base.U64 Base.Eqb Model.CommitmentPolicy Model.Sweep Model.SweepCheck.
From Coq Require Import ZifyBool ZifyN.

Local Open Scope N_scope.

Lemma sthen_ok a b : sthen a b = SOk <-> a = SOk /\ b = SOk.
Proof. destruct a; cbn [sthen]; intuition discriminate. Qed.

(** [if c { policy_err!(t) }], which Model/Sweep.v writes out where the other models say [check] *)
Lemma scheck_ok (c : bool) warn t :
  (if c then sperr warn t else SOk) = SOk <-> (warn t = false -> c = false).
Proof. unfold sperr. destruct c, (warn t); intuition congruence. Qed.

Lemma nthN_cons_0 {A} (x : A) r : nthN (x :: r) 0 = Some x.
Proof. reflexivity. Qed.

Lemma nthN_lt {A} (l : list A) : forall i, i < lenN l -> exists x, nthN l i = Some x.
Proof.
  unfold lenN. induction l as [|x l IH]; intros i Hi; cbn [length nthN] in *.
  - lia.
  - destruct (i =? 0) eqn:E.
    + eauto.
    + apply IH. lia.
Qed.

Lemma nthN_some_lt {A} (l : list A) : forall i x, nthN l i = Some x -> i < lenN l.
Proof.
  unfold lenN. induction l as [|y l IH]; intros i x H; cbn [length nthN] in *.
  - discriminate.
  - destruct (i =? 0) eqn:E.
    + lia.
    + apply IH in H. lia.
Qed.

(** the destination loop, exactly: no wallet error, and every output owned unless the
    destination tag is downgraded *)
Lemma outputs_loop_ok warn w path outs :
  outputs_loop warn w path outs = SOk <->
  Forall (fun o => can_spend w path (out_spk o) <> WalletError /\
                   (warn S_destination = false -> owned w path o)) outs.
Proof.
  induction outs as [|o r IH]; cbn [outputs_loop]; [intuition|].
  rewrite Forall_cons_iff, <- IH. unfold owned.
  destruct (can_spend w path (out_spk o)), (allowlisted w (out_spk o) path);
    rewrite ?sthen_ok; unfold sperr; destruct (warn S_destination); intuition congruence.
Qed.

Lemma outputs_loop_owned warn w path :
  warn S_destination = false ->
  forall outs, outputs_loop warn w path outs = SOk -> Forall (owned w path) outs.
Proof. intros Hw outs H. apply outputs_loop_ok in H. revert H. apply Forall_impl. tauto. Qed.

Lemma outputs_loop_no_wallet_error warn w path :
  forall outs, outputs_loop warn w path outs = SOk ->
               Forall (fun o => can_spend w path (out_spk o) <> WalletError) outs.
Proof. intros outs H. apply outputs_loop_ok in H. revert H. apply Forall_impl. tauto. Qed.

Lemma validate_sweep_ok warn w t path :
  validate_sweep warn w t path = SOk ->
  tx_version t = 2 /\ outputs_loop warn w path (tx_outs t) = SOk.
Proof.
  unfold validate_sweep. destruct (tx_version t =? 2) eqn:E; cbn [negb]; intros H.
  - split; [lia | exact H].
  - discriminate.
Qed.

Lemma lag_height_val prof h x :
  lag_height prof h = Val x -> x <= h + MAX_CHAIN_LAG /\ x < LOCK_TIME_THRESHOLD.
Proof.
  unfold lag_height, add_p32, MAX_CHAIN_LAG. intros H.
  destruct prof.
  - destruct (h + 2 <=? U32MAX) eqn:E; try discriminate.
    destruct (h + 2 <? LOCK_TIME_THRESHOLD) eqn:E2; try discriminate.
    inversion H; subst. lia.
  - destruct ((h + 2) mod two32 <? LOCK_TIME_THRESHOLD) eqn:E2; try discriminate.
    inversion H; subst. split; [|lia].
    apply N.mod_le. unfold two32. lia.
Qed.

Lemma locktime_check_bound prof lt h :
  locktime_check prof lt h = SOk -> LocktimeBound h lt.
Proof.
  unfold locktime_check. destruct (lag_height prof h) as [x|] eqn:E; try discriminate.
  apply lag_height_val in E. destruct E as [E1 E2].
  unfold is_satisfied_by, LocktimeBound.
  destruct (lt <? LOCK_TIME_THRESHOLD) eqn:L.
  - destruct (lt <=? x) eqn:L2; try discriminate. intros _. left. lia.
  - destruct (lt <=? TIME_MIN) eqn:L2; try discriminate. intros _. right.
    unfold TIME_MIN, LOCK_TIME_THRESHOLD in *. lia.
Qed.

Lemma LocktimeBound_final h lt : LocktimeBound h lt -> LocktimeFinal h lt.
Proof.
  unfold LocktimeBound, LocktimeFinal, is_satisfied_by, TIME_MIN, LOCK_TIME_THRESHOLD.
  intros [[A B]|A] time Ht.
  - destruct (lt <? 500000000) eqn:L; lia.
  - subst. destruct (500000000 <? 500000000) eqn:L; lia.
Qed.

Lemma LocktimeFinal_bound h lt : LocktimeFinal h lt -> LocktimeBound h lt.
Proof.
  unfold LocktimeBound, LocktimeFinal, is_satisfied_by, TIME_MIN, LOCK_TIME_THRESHOLD.
  intros H. specialize (H 500000000 (N.le_refl _)).
  destruct (lt <? 500000000) eqn:L; [left|right]; lia.
Qed.

Definition sel_index (sel : seqsel) (input : N) : N :=
  match sel with SignedInput => input | FirstInput => 0 end.

Lemma sequence_check_sel sel t input ok :
  sequence_check sel t input ok = SOk ->
  exists s, signed_seq t (sel_index sel input) = Some s /\ ok s = true.
Proof.
  unfold sequence_check, checked_input, signed_seq. fold (sel_index sel input).
  destruct (nthN (tx_ins t) (sel_index sel input)) as [i|]; [|destruct sel; discriminate].
  destruct (ok (in_seq i)) eqn:E; [|discriminate]. intros _. exists (in_seq i). auto.
Qed.

Lemma memN_non_anchor s : memN s NON_ANCHOR_SEQS = true -> no_relative_lock s.
Proof. unfold memN, NON_ANCHOR_SEQS, no_relative_lock. cbn [existsb]. lia. Qed.

Lemma memN_anchor s : memN s ANCHOR_SEQS = true -> s = 1.
Proof. unfold memN, ANCHOR_SEQS. cbn [existsb]. lia. Qed.

Section Sweeps.
  Variable prof : profile.
  Variable warn : stag -> bool.
  Variable w : wallet.

  (** each of the three sweep validators is the common validation, then a lock-time rule,
      then a rule on the sequence of input [sel_index sel input] *)
  Lemma sweep_shape sel t path lk input ok :
    sthen (validate_sweep warn w t path) (sthen lk (sequence_check sel t input ok)) = SOk ->
    tx_version t = 2 /\ outputs_loop warn w path (tx_outs t) = SOk /\ lk = SOk /\
    exists s, signed_seq t (sel_index sel input) = Some s /\ ok s = true.
  Proof.
    intros H. apply sthen_ok in H. destruct H as [H1 H]. apply sthen_ok in H. destruct H as [H2 H3].
    apply validate_sweep_ok in H1. destruct H1 as [V O]. apply sequence_check_sel in H3. auto.
  Qed.

  (** everything but the destinations holds whatever the filter says *)
  Lemma delayed_facts sel cpd h t input path :
    validate_delayed_sweep sel prof warn w cpd h t input path = SOk ->
    tx_version t = 2 /\ outputs_loop warn w path (tx_outs t) = SOk /\
    LocktimeBound h (tx_locktime t) /\ signed_seq t (sel_index sel input) = Some cpd.
  Proof.
    intros H. apply sweep_shape in H. destruct H as (V & O & L & s & S1 & S2).
    apply locktime_check_bound in L. apply N.eqb_eq in S2. subst s. auto.
  Qed.

  Lemma cp_htlc_facts sel anchors h t rs input path :
    validate_counterparty_htlc_sweep sel prof warn w anchors h t rs input path = SOk ->
    tx_version t = 2 /\ outputs_loop warn w path (tx_outs t) = SOk /\
    CpHtlcLocktimeBound anchors h rs (tx_locktime t) /\
    exists s, signed_seq t (sel_index sel input) = Some s /\ CpHtlcSequenceBound anchors s.
  Proof.
    intros H. apply sweep_shape in H. destruct H as (V & O & L & s & S1 & S2).
    do 2 (split; [assumption|]). split.
    - unfold CpHtlcLocktimeBound.
      destruct (parse_received rs anchors) as [[neg c]|] eqn:P.
      + left. exists neg, c. split; [reflexivity|].
        destruct ((neg && (0 <? c)) || (U32MAX <? c)) eqn:E; try discriminate.
        destruct (c <? tx_locktime t) eqn:E2; try discriminate.
        split; [|lia].
        destruct neg; [right|left; reflexivity].
        cbn [andb orb] in E. lia.
      + right. destruct (parse_offered rs anchors) eqn:Q; try discriminate.
        repeat split. apply locktime_check_bound in L. exact L.
    - exists s. split; [exact S1|]. unfold CpHtlcSequenceBound.
      destruct anchors; [apply memN_anchor | apply memN_non_anchor]; exact S2.
  Qed.

  Lemma justice_facts sel h t input path :
    validate_justice_sweep sel prof warn w h t input path = SOk ->
    tx_version t = 2 /\ outputs_loop warn w path (tx_outs t) = SOk /\
    LocktimeBound h (tx_locktime t) /\
    exists s, signed_seq t (sel_index sel input) = Some s /\ no_relative_lock s.
  Proof.
    intros H. apply sweep_shape in H. destruct H as (V & O & L & s & S1 & S2).
    apply locktime_check_bound in L. apply memN_non_anchor in S2.
    do 3 (split; [assumption|]). exists s. auto.
  Qed.

  (** under a filter that keeps the destination tag, the destinations as well *)
  Lemma with_owned t path (P : Prop) :
    warn S_destination = false ->
    tx_version t = 2 /\ outputs_loop warn w path (tx_outs t) = SOk /\ P ->
    AllOutputsOwned w path t /\ tx_version t = 2 /\ P.
  Proof.
    intros Hw (V & O & R). exact (conj (outputs_loop_owned _ _ _ Hw _ O) (conj V R)).
  Qed.

  Lemma delayed_accept sel cpd h t input path :
    warn S_destination = false ->
    validate_delayed_sweep sel prof warn w cpd h t input path = SOk ->
    AllOutputsOwned w path t /\ tx_version t = 2 /\ LocktimeBound h (tx_locktime t) /\
    signed_seq t (sel_index sel input) = Some cpd.
  Proof. intros Hw H. exact (with_owned _ _ _ Hw (delayed_facts _ _ _ _ _ _ H)). Qed.

  Lemma cp_htlc_accept sel anchors h t rs input path :
    warn S_destination = false ->
    validate_counterparty_htlc_sweep sel prof warn w anchors h t rs input path = SOk ->
    AllOutputsOwned w path t /\ tx_version t = 2 /\
    CpHtlcLocktimeBound anchors h rs (tx_locktime t) /\
    exists s, signed_seq t (sel_index sel input) = Some s /\ CpHtlcSequenceBound anchors s.
  Proof. intros Hw H. exact (with_owned _ _ _ Hw (cp_htlc_facts _ _ _ _ _ _ _ H)). Qed.

  Lemma justice_accept sel h t input path :
    warn S_destination = false ->
    validate_justice_sweep sel prof warn w h t input path = SOk ->
    AllOutputsOwned w path t /\ tx_version t = 2 /\ LocktimeBound h (tx_locktime t) /\
    exists s, signed_seq t (sel_index sel input) = Some s /\ no_relative_lock s.
  Proof. intros Hw H. exact (with_owned _ _ _ Hw (justice_facts _ _ _ _ _ H)). Qed.

  (** the signing calls of channel.rs answer Ok only through the validator *)

  Lemma input_index_check_ok t input : input_index_check t input = SOk -> input < lenN (tx_ins t).
  Proof. unfold input_index_check. destruct (lenN (tx_ins t) <=? input) eqn:E; [discriminate | lia]. Qed.

  Lemma sign_delayed_through sel s h t input cn nh path :
    sign_delayed_sweep sel prof warn w s h t input cn nh path = SOk ->
    input < lenN (tx_ins t) /\ cn <= nh + 1 /\
    validate_delayed_sweep sel prof warn w (cp_delay s) h t input path = SOk.
  Proof.
    unfold sign_delayed_sweep, commit_point_check. intros H.
    apply sthen_ok in H. destruct H as [H1 H]. apply sthen_ok in H. destruct H as [H2 H3].
    apply input_index_check_ok in H1.
    destruct (nh + 1 <? cn) eqn:E2; [discriminate|]. repeat split; [exact H1 | lia | exact H3].
  Qed.

  Lemma sign_cp_htlc_through sel s h t rs input path :
    sign_counterparty_htlc_sweep sel prof warn w s h t rs input path = SOk ->
    input < lenN (tx_ins t) /\
    validate_counterparty_htlc_sweep sel prof warn w (is_anchors (commitment_type s)) h t rs input path = SOk.
  Proof.
    intros H. apply sthen_ok in H. destruct H as [H1 H2]. apply input_index_check_ok in H1. auto.
  Qed.

  Lemma sign_justice_through sel h t input path :
    sign_justice_sweep sel prof warn w h t input path = SOk ->
    input < lenN (tx_ins t) /\ validate_justice_sweep sel prof warn w h t input path = SOk.
  Proof.
    intros H. apply sthen_ok in H. destruct H as [H1 H2]. apply input_index_check_ok in H1. auto.
  Qed.
End Sweeps.

Lemma htlc_weight_range a o : 0 < htlc_weight a o /\ htlc_weight a o <= 1000.
Proof.
  unfold htlc_weight, HTLC_TIMEOUT_ANCHOR_WEIGHT, HTLC_SUCCESS_ANCHOR_WEIGHT,
    HTLC_TIMEOUT_WEIGHT, HTLC_SUCCESS_WEIGHT.
  destruct a, o; lia.
Qed.

Lemma msat_roundtrip prof amount m :
  amount_fits prof amount -> mul_p prof amount 1000 = Val m -> m / 1000 = amount.
Proof.
  unfold amount_fits, mul_p, mul_wrap. intros F H. destruct prof.
  - destruct (amount * 1000 <=? U64MAX); try discriminate. inversion H; subst.
    apply N.div_mul. lia.
  - destruct F as [F|F]; [discriminate|]. inversion H; subst.
    rewrite N.mod_small by (unfold two64, U64MAX in *; lia).
    apply N.div_mul. lia.
Qed.

Lemma map_txin_inj (l1 l2 : list txin) :
  map outpoint_of l1 = map outpoint_of l2 -> map in_seq l1 = map in_seq l2 -> l1 = l2.
Proof.
  revert l2. induction l1 as [|a l1 IH]; intros [|b l2] H1 H2; cbn [map] in *;
    try discriminate; auto.
  inversion H1. inversion H2. f_equal; auto.
  destruct a, b. unfold outpoint_of in *. cbn in *. congruence.
Qed.

Lemma map_out_pair_inj (l1 l2 : list txout) : map out_pair l1 = map out_pair l2 -> l1 = l2.
Proof.
  revert l2. induction l1 as [|a l1 IH]; intros [|b l2] H; cbn [map] in *;
    try discriminate; auto.
  inversion H. f_equal; auto. destruct a, b. unfold out_pair in *. cbn in *. congruence.
Qed.

Lemma map_single {A B} (f : A -> B) l y : map f l = [y] -> exists x, l = [x] /\ f x = y.
Proof.
  destruct l as [|x [|x2 l]]; cbn [map]; intros E; try discriminate.
  inversion E. eauto.
Qed.

Lemma covered_all_whole t1 t2 i s a c :
  covered_fields SH_All t1 i s a = Some c -> covered_fields SH_All t2 i s a = Some c -> t1 = t2.
Proof.
  unfold covered_fields. intros H1 H2.
  destruct (nthN (tx_ins t1) i); try discriminate.
  destruct (nthN (tx_ins t2) i); try discriminate.
  inversion H1; subst; clear H1. inversion H2 as [[V P S O Q O2 L]]; clear H2.
  destruct t1, t2. cbn in *. f_equal; auto.
  - apply map_txin_inj; auto.
  - apply map_out_pair_inj; auto.
Qed.

Section HtlcProofs.
  Variable revokeable_spk : N -> N -> N -> N.
  Variable H : Type.
  Variable sighash : covered -> H.
  Variable H_eqb : H -> H -> bool.
  (** the assumed laws of the signature hash: equal hashes come from equal preimage fields
      (collision resistance of double SHA-256 over an injective serialisation) *)
  Hypothesis H_eqb_true : forall a b, H_eqb a b = true -> a = b.
  Hypothesis sighash_inj : forall a b, sighash a = sighash b -> a = b.

  Variable prof : profile.
  Variable warn : stag -> bool.
  Variable pol : policy.

  Notation decode := (decode_and_validate_htlc_tx revokeable_spk H sighash H_eqb prof).
  Notation build := (build_htlc_transaction revokeable_spk).
  Notation canon := (canon_htlc_tx revokeable_spk).

  Definition sh_of (c : ctype) : shtype := if is_anchors c then SH_SingleACP else SH_All.
  Definition self_delay (is_cp : bool) (s : setup) : N :=
    if is_cp then holder_delay s else cp_delay s.

  Lemma decode_ok is_cp s rev delayed t rs_id rs amount fr off cl :
    decode is_cp s rev delayed t rs_id rs amount = (SOk, (fr, off, cl)) ->
    exists i0 o0 fee m rec,
      nthN (tx_ins t) 0 = Some i0 /\ nthN (tx_outs t) 0 = Some o0 /\
      htlc_kind rs (is_anchors (commitment_type s)) = Some off /\
      cl = (if off then tx_locktime t else 0) /\
      out_value o0 + fee = amount /\
      fr = (if is_zero_fee_htlc (commitment_type s) then 0
            else estimate_feerate_per_kw fee (htlc_weight (ldk_anchors (commitment_type s)) off)) /\
      mul_p prof amount 1000 = Val m /\
      build (commitment_type s) (prev_txid i0) (prev_vout i0) fr (self_delay is_cp s) off m cl
            rev delayed = Val rec /\
      covered_fields (sh_of (commitment_type s)) t 0 rs_id amount =
      covered_fields (sh_of (commitment_type s)) rec 0 rs_id amount /\
      covered_fields (sh_of (commitment_type s)) t 0 rs_id amount <> None.
  Proof.
    unfold decode_and_validate_htlc_tx, sighash_of. fold (sh_of (commitment_type s)).
    fold (self_delay is_cp s).
    intros D.
    destruct (covered_fields (sh_of (commitment_type s)) t 0 rs_id amount) as [co|] eqn:C0;
      cbn [option_map] in D; [|inversion D].
    destruct (htlc_kind rs (is_anchors (commitment_type s))) as [offered|] eqn:K; [|inversion D].
    destruct (tx_ins t) as [|i0 ins] eqn:I; [inversion D|].
    destruct (tx_outs t) as [|o0 outs] eqn:O; [inversion D|].
    unfold sub_checked in D.
    destruct (out_value o0 <=? amount) eqn:Fe; [|inversion D].
    destruct (mul_p prof amount 1000) as [m|] eqn:M; [|inversion D].
    destruct (build _ _ _ _ _ _ _ _ _ _) as [rec|] eqn:B; [|inversion D].
    destruct (covered_fields (sh_of (commitment_type s)) rec 0 rs_id amount) as [cr|] eqn:C1;
      cbn [option_map] in D; [|inversion D].
    destruct (H_eqb (sighash cr) (sighash co)) eqn:E; [|inversion D].
    inversion D; subst fr off cl; clear D.
    apply H_eqb_true in E. apply sighash_inj in E. subst cr.
    exists i0, o0, (amount - out_value o0), m, rec.
    repeat split; try reflexivity; [lia | exact B | symmetry; exact C1 | discriminate].
  Qed.

  Lemma anchors_zero_fee c : c <> Anchors -> is_anchors c = is_zero_fee_htlc c.
  Proof. destruct c; congruence || reflexivity. Qed.

  (** LDK's recomposition is the BOLT-3 transaction, for every type but the one whose
      non-zero-fee anchor bit LDK does not implement: for the others LDK's anchors bit
      ([ldk_anchors]) is the model's [is_anchors] *)
  Lemma build_is_canon c txid vout fr delay off m amount cl rev delayed rec :
    c <> Anchors -> m / 1000 = amount ->
    build c txid vout fr delay off m (if off then cl else 0) rev delayed = Val rec ->
    rec = canon c txid vout off cl amount fr delay rev delayed /\
    bolt3_htlc_fee c off fr <= amount.
  Proof.
    intros Hc Hm. unfold build_htlc_transaction, canon_htlc_tx, bolt3_htlc_fee, ldk_anchors.
    rewrite Hm, (anchors_zero_fee c Hc). destruct (is_zero_fee_htlc c).
    - intros B. inversion B; subst. split; [|lia]. rewrite N.sub_0_r. destruct off; reflexivity.
    - destruct (fr * htlc_weight false off / 1000 <=? amount) eqn:E; try discriminate.
      intros B. inversion B; subst. split; [|lia]. destruct off; reflexivity.
  Qed.

  Lemma validate_htlc_tx_ok s fr off cl :
    validate_htlc_tx warn pol s fr off cl = SOk <->
    (warn H_locktime = false -> off = true -> cl <> 0) /\
    (warn H_fee_range = false ->
     (is_zero_fee_htlc (commitment_type s) = false -> min_feerate pol <= fr) /\
     fr <= max_feerate pol).
  Proof.
    clear revokeable_spk. (* or [lia] makes the lemma depend on it *)
    unfold validate_htlc_tx. rewrite !sthen_ok, !scheck_ok.
    destruct off, (is_zero_fee_htlc (commitment_type s)); cbn [andb negb]; intuition (discriminate || lia).
  Qed.

  Lemma sign_htlc_tx_split is_cp s rev delayed t rs_id rs amount :
    sign_htlc_tx revokeable_spk H sighash H_eqb prof warn pol is_cp s rev delayed t rs_id rs amount = SOk ->
    exists fr off cl,
      decode is_cp s rev delayed t rs_id rs amount = (SOk, (fr, off, cl)) /\
      validate_htlc_tx warn pol s fr off cl = SOk.
  Proof.
    unfold sign_htlc_tx.
    destruct (decode is_cp s rev delayed t rs_id rs amount) as [r [[fr off] cl]].
    destruct r; try discriminate. intros V. exists fr, off, cl. auto.
  Qed.

  (** SINGLE|ANYONECANPAY (anchors) leaves further inputs and outputs free *)
  Lemma covered_canon_inv c t i0 o0 txid vout off cl amount r delay rev delayed rs_id :
    nthN (tx_ins t) 0 = Some i0 -> nthN (tx_outs t) 0 = Some o0 ->
    covered_fields (sh_of c) t 0 rs_id amount =
    covered_fields (sh_of c) (canon c txid vout off cl amount r delay rev delayed) 0 rs_id amount ->
    tx_version t = 2 /\ tx_locktime t = (if off then cl else 0) /\
    in_seq i0 = (if is_anchors c then 1 else 0) /\
    out_value o0 = amount - bolt3_htlc_fee c off r /\
    out_spk o0 = revokeable_spk rev delay delayed /\
    (is_anchors c = false -> tx_ins t = [i0] /\ tx_outs t = [o0]).
  Proof.
    intros I O CV. unfold covered_fields, canon_htlc_tx, sh_of in CV. rewrite I in CV.
    cbn [tx_ins tx_outs tx_version tx_locktime nthN] in CV.
    change (0 =? 0) with true in CV. cbv iota in CV.
    unfold outpoint_of, out_pair in CV.
    cbn [prev_txid prev_vout in_seq out_value out_spk map] in CV.
    destruct (is_anchors c).
    - rewrite O in CV. injection CV as EVer _ _ ES EV EQ EL.
      repeat split; auto; discriminate.
    - injection CV as EVer EPs ESs _ _ ES EO EL.
      destruct (map_single _ _ _ ESs) as (x & Ex & _).
      destruct (map_single _ _ _ EO) as (y & Ey & Ey2).
      rewrite Ex in I. injection I as ->. rewrite Ey in O. injection O as ->.
      injection Ey2 as Y1 Y2. repeat split; auto.
  Qed.

  Lemma sign_holder_through s given cn nh rev delayed t rs_id rs amount :
    sign_holder_htlc_tx revokeable_spk H sighash H_eqb prof warn pol s given cn nh rev delayed t
      rs_id rs amount = SOk ->
    (given = true \/ cn <= nh + 1) /\
    sign_htlc_tx revokeable_spk H sighash H_eqb prof warn pol false s rev delayed t rs_id rs amount = SOk.
  Proof.
    unfold sign_holder_htlc_tx. intros S. apply sthen_ok in S. destruct S as [S1 S2].
    split; [|exact S2].
    destruct given; [left; reflexivity|right].
    destruct (nh + 1 <? cn) eqn:E; [discriminate | lia].
  Qed.
End HtlcProofs.

(** the instantiation used by the executable comparison satisfies the assumed laws *)

Lemma pairN_eqb_ok (x y : N * N) : beq x y = true <-> x = y.
Proof. exact (prod_eqb_ok N.eqb_eq N.eqb_eq x y). Qed.
Lemma listN_eqb_ok (x y : list N) : beq x y = true <-> x = y.
Proof. exact (list_eqb_ok _ N.eqb_eq x y). Qed.
Lemma listNN_eqb_ok (x y : list (N * N)) : beq x y = true <-> x = y.
Proof. exact (list_eqb_ok _ pairN_eqb_ok x y). Qed.

(** field by field, in the order of [covered] *)
Lemma cov_eqb_true (a b : covered) : cov_eqb a b = true -> a = b.
Proof.
  apply (prod_eqb_ok (prod_eqb_ok (prod_eqb_ok (prod_eqb_ok (prod_eqb_ok (prod_eqb_ok
          (prod_eqb_ok (prod_eqb_ok (prod_eqb_ok N.eqb_eq listNN_eqb_ok) listN_eqb_ok)
          pairN_eqb_ok) N.eqb_eq) N.eqb_eq) N.eqb_eq) listNN_eqb_ok) N.eqb_eq) N.eqb_eq).
Qed.
