(** Joint histories project onto histories of the two component models. *)
From VLS Require Import Base.U64 Model.Joint Proofs.EnforcementProofs.
Require Import Lia.

Section J.
Variable warn : tag -> bool.
Variable prof : profile.
Variable nch : nat.
Variables mf mp : N.

Lemma prun_app s a b :
  P.prun nch mf mp s (a ++ b) = P.prun nch mf mp (P.prun nch mf mp s a) b.
Proof. revert s; induction a as [|o a IH]; intros s; cbn [P.prun app]; [reflexivity | apply IH]. Qed.

Lemma jstep_jp s o :
  jp (fst (jstep warn prof nch mf mp s o)) =
  P.prun nch mf mp (jp s) (fst (fst (with_crash nch (plan warn prof nch mf mp s o)))).
Proof.
  unfold jstep, exec. destruct (with_crash nch (plan warn prof nch mf mp s o)) as [[pops cops] r].
  reflexivity.
Qed.

Lemma jstep_jc s o ch :
  jc (fst (jstep warn prof nch mf mp s o)) ch =
  grun warn prof (jc s ch) (ops_for ch (snd (fst (with_crash nch (plan warn prof nch mf mp s o))))).
Proof.
  unfold jstep, exec. destruct (with_crash nch (plan warn prof nch mf mp s o)) as [[pops cops] r].
  reflexivity.
Qed.

Theorem jrun_pay ops : forall s,
  jp (jrun warn prof nch mf mp s ops) = P.prun nch mf mp (jp s) (jrun_pops warn prof nch mf mp s ops).
Proof.
  induction ops as [|o ops IH]; intros s; cbn [jrun jrun_pops]; [reflexivity|].
  rewrite IH, prun_app, jstep_jp. reflexivity.
Qed.

Theorem jrun_chan ops : forall s ch,
  jc (jrun warn prof nch mf mp s ops) ch = grun warn prof (jc s ch) (jrun_cops warn prof nch mf mp ch s ops).
Proof.
  induction ops as [|o ops IH]; intros s ch; cbn [jrun jrun_cops]; [reflexivity|].
  rewrite IH, grun_app, jstep_jc. reflexivity.
Qed.

Definition jwf (o : jop) : Prop :=
  match o with
  | JSignCp _ n _ _ _ _ | JValidateHolder _ n _ _ _ _ | JRevoke _ n | JCpRevoke _ n _ _ _
  | JSignHolder _ n => n <= U64MAX
  | _ => True
  end.

Lemma ops_for_app ch a b : ops_for ch (a ++ b) = ops_for ch a ++ ops_for ch b.
Proof. unfold ops_for. rewrite filter_app, map_app. reflexivity. Qed.

Lemma ops_for_wf ch l : Forall (fun p => wf_op (snd p)) l -> Forall wf_op (ops_for ch l).
Proof. intros H. apply Forall_map. eapply incl_Forall; [apply incl_filter | exact H]. Qed.

Lemma ops_for_length ch l : (length (ops_for ch l) <= length l)%nat.
Proof.
  unfold ops_for. rewrite map_length. induction l as [|p l IH]; cbn [filter length]; [lia|].
  destruct (fst p =? ch); cbn [length]; lia.
Qed.

Lemma chan_ids_length n : length (P.chan_ids n) = n.
Proof. induction n as [|n IH]; cbn [P.chan_ids]; [reflexivity|]. rewrite app_length, IH. cbn. lia. Qed.

(** one joint request plans at most one channel request, or the restarts of a restart request; a
    panic adds a restart of every channel *)
Lemma step_cops_wf s o :
  jwf o ->
  let cops := snd (fst (with_crash nch (plan warn prof nch mf mp s o))) in
  Forall (fun p => wf_op (snd p)) cops /\ (length cops <= 1 + nch)%nat.
Proof.
  intros Hwf.
  assert (R : forall pops (l : list (N * op)), Forall (fun p => wf_op (snd p)) l -> (length l <= 1)%nat ->
            forall r, let cops := snd (fst (with_crash nch (pops, l, r))) in
            Forall (fun p => wf_op (snd p)) cops /\ (length cops <= 1 + nch)%nat).
  { intros pops l Hl Hn r. unfold with_crash. destruct (st r); cbn [fst snd]; try (split; [exact Hl | lia]).
    split; [apply Forall_app; split; [exact Hl | apply Forall_map, Forall_forall; intros; exact I]|].
    rewrite app_length, map_length, chan_ids_length. lia. }
  destruct o; cbn [plan jwf] in *; try destruct (negb (P.in_range nch ch));
    try (apply (R _ []); [constructor | cbn; lia]);
    try (apply (R _ [_]); [repeat constructor; exact Hwf | cbn; lia]).
  (* a restart request does not panic *)
  unfold with_crash; cbn [st ok0 fst snd].
  split; [apply Forall_map, Forall_forall; intros; exact I | rewrite map_length, chan_ids_length; lia].
Qed.

Theorem jrun_cops_wf ops : forall s ch,
  Forall jwf ops ->
  Forall wf_op (jrun_cops warn prof nch mf mp ch s ops) /\
  (length (jrun_cops warn prof nch mf mp ch s ops) <= (1 + nch) * length ops)%nat.
Proof.
  induction ops as [|o ops IH]; intros s ch Hwf; cbn [jrun_cops length]; [split; [constructor|lia]|].
  inversion Hwf as [|? ? Ho Hr]; subst.
  destruct (step_cops_wf s o Ho) as [S1 S2].
  destruct (IH (fst (jstep warn prof nch mf mp s o)) ch Hr) as [I1 I2].
  split; [apply Forall_app; split; [apply ops_for_wf, S1 | exact I1]|].
  rewrite app_length. pose proof (ops_for_length ch (snd (fst (with_crash nch (plan warn prof nch mf mp s o))))). lia.
Qed.

End J.

Section Hist.
Variable warn : tag -> bool.
Variable prof : profile.

Definition chan_history nch mf mp (jops : list jop) (ch : N) : list op :=
  boot ++ jrun_cops warn prof nch mf mp ch (jinit warn prof) jops.

(** histories short enough for the counters to stay below 2^64 (as [short] in C01); 4 = length boot *)
Definition jshort (nch : nat) (jops : list jop) : Prop :=
  2 * N.of_nat (4 + (1 + nch) * length jops) + 4 <= U64MAX.

Lemma boot_wf : Forall wf_op boot.
Proof. repeat constructor; cbv; discriminate. Qed.

Lemma chan_history_spec nch mf mp jops ch :
  jc (jrun warn prof nch mf mp (jinit warn prof) jops) ch =
  grun warn prof (Stub, ghost0) (chan_history nch mf mp jops ch).
Proof. unfold chan_history. rewrite jrun_chan, grun_app. reflexivity. Qed.

Lemma chan_history_ops_wf nch mf mp jops ch :
  Forall jwf jops -> Forall wf_op (chan_history nch mf mp jops ch).
Proof.
  intros Hwf. apply Forall_app. split; [exact boot_wf|].
  apply (jrun_cops_wf warn prof nch mf mp jops (jinit warn prof) ch Hwf).
Qed.

Lemma chan_history_wf nch mf mp jops ch :
  Forall jwf jops -> jshort nch jops ->
  Forall wf_op (chan_history nch mf mp jops ch) /\ short (chan_history nch mf mp jops ch).
Proof.
  intros Hwf Hs. split; [exact (chan_history_ops_wf nch mf mp jops ch Hwf)|].
  pose proof (proj2 (jrun_cops_wf warn prof nch mf mp jops (jinit warn prof) ch Hwf)) as L.
  unfold short, chan_history, jshort in *. rewrite app_length. cbn [boot length].
  lia.
Qed.

End Hist.

Section Cross.
Variable warn : tag -> bool.
Variable prof : profile.

Definition slot_durable (s : slot) : Prop :=
  match s with Stub => True | Ready ch => mem ch = disk ch end.

Lemma slot_durable_crash s : slot_durable s <-> crash s = s.
Proof. destruct s; [split; reflexivity || exact (fun _ => I) | symmetry; apply crash_ready]. Qed.

Lemma revoke_unpaid_keeps sl n :
  slot_durable sl ->
  slot_next_h (fst (step warn prof sl (Revoke n false))) = slot_next_h sl /\
  slot_durable (fst (step warn prof sl (Revoke n false))).
Proof.
  intros Hd. destruct sl as [|ch]; [split; [reflexivity | exact I]|]. cbn [slot_durable] in Hd.
  rewrite step_ready. unfold settle. cbn [handler].
  destruct (do_revoke_cases warn prof ch n false); try discriminate;
    cbn [fst snd st refused aborted ok_ps crash slot_next_h slot_durable mem disk]; rewrite <- ?Hd; auto.
Qed.

Lemma joint_durable nch mf mp jops ch :
  Forall jwf jops -> slot_durable (fst (jc (jrun warn prof nch mf mp (jinit warn prof) jops) ch)).
Proof.
  intros Hwf. rewrite (chan_history_spec warn prof).
  apply slot_durable_crash, grun_durable; [|reflexivity]. exact (chan_history_ops_wf warn prof nch mf mp jops ch Hwf).
Qed.

Lemma ops_for_one ch o : ops_for ch [(ch, o)] = [o].
Proof. unfold ops_for. cbn [filter fst]. rewrite N.eqb_refl. reflexivity. Qed.

Lemma restart_all_identity ch l : forall sg,
  slot_durable (fst sg) ->
  fst (grun warn prof sg (ops_for ch (map (fun c => (c, Restart)) l))) = fst sg.
Proof.
  unfold ops_for. induction l as [|c l IH]; intros sg Hd; [reflexivity|].
  cbn [map filter fst]. destruct (c =? ch); cbn [map snd grun]; [|exact (IH sg Hd)].
  assert (E : fst (fst (gstep warn prof sg Restart)) = fst sg)
    by (rewrite gstep_slot, step_restart; apply slot_durable_crash, Hd).
  rewrite IH; [exact E | rewrite E; exact Hd].
Qed.

(** a revocation moves the holder counter of a channel only when the node-wide payment check
    accepts, on the ledger as it is at that moment, the HTLCs of the commitment that becomes
    current *)
Theorem revoke_needs_payment_check nch mf mp jops ch n c :
  Forall jwf jops ->
  let s := jrun warn prof nch mf mp (jinit warn prof) jops in
  let s' := fst (jstep warn prof nch mf mp s (JRevoke ch n)) in
  slot_next_h (fst (jc s' ch)) <> slot_next_h (fst (jc s ch)) ->
  P.hnxt (P.chans (jp s) ch) = Some c ->
  P.validate_payments nch mf mp (jp s) ch (Some c) None = true.
Proof.
  intros Hwf s s' Hadv Hn. subst s'.
  pose proof (joint_durable nch mf mp jops ch Hwf) as Hd. fold s in Hd.
  destruct (P.validate_payments nch mf mp (jp s) ch (Some c) None) eqn:Ev; [reflexivity|].
  exfalso. apply Hadv. rewrite jstep_jc. cbn [plan]. rewrite Hn, Ev.
  destruct (negb (P.in_range nch ch)).
  - cbn [with_crash st refused fst snd ops_for filter map grun]. reflexivity.
  - destruct (revoke_unpaid_keeps (fst (jc s ch)) n Hd) as [K1 K2].
    rewrite <- (gstep_slot warn prof (jc s ch)) in K1, K2.
    (* the request, and after a panic the restarts, which a durable slot does not notice *)
    unfold with_crash. cbn [st snd fst].
    destruct (st (snd (gstep warn prof (jc s ch) (Revoke n false)))); cbn [fst snd].
    1, 2: rewrite ops_for_one; exact K1.
    rewrite ops_for_app, ops_for_one. cbn [app grun]. rewrite restart_all_identity; assumption.
Qed.

End Cross.
