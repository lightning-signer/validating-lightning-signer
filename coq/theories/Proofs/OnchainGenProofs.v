(** The numeric rules of the on-chain model ([validate_beneficial] and the fee tail of
    [validate_onchain] of Model/Onchain.v: the checked sum of the input values followed by
    [validate_beneficial]) are what the translated source computes: Gen/OnchainGen.v is regenerated
    on every run from SimpleValidator::validate_beneficial_value (whole body) and from the
    statements of ::validate_onchain_tx from `let mut sum_inputs: u64 = 0;` to the end.

    [abs_opolicy] reads the model's policy off the source-level one: the maximum feerate, and the
    developer flag through `dev_flags.as_ref().unwrap_or(&DEFAULT_DEV_FLAGS)` (no flags = the
    default, read from the file).  Side condition: the sum of the inputs fits u64 (it is a u64; for
    the tail it is produced by checked additions, so there is none). *)
From Coq Require Import String.
From VLS Require Import Base.Rust Gen.OnchainGen Proofs.RustFacts.
From VLS Require Gen.CommitmentPolicyGen Gen.TxUtilGen Proofs.TxUtilGenProofs.
From VLS Require Import Model.Onchain Proofs.OnchainProofs.

Module CP := CommitmentPolicyGen.

Definition abs_opolicy (p : CP.SimplePolicy) : opolicy :=
  mkOPol (CP.SimplePolicy_max_feerate_per_kw p)
         (match CP.SimplePolicy_dev_flags p with
          | Some f => CP.PolicyDevFlags_disable_beneficial_balance_checks f
          | None => false
          end).

Definition otag_filter (swarn : string -> bool) : otag -> bool := fun t => swarn (otag_name t).

(** [VUnknown] (the list of unknown destinations) is produced in front of the translated tail; it
    carries the tag of unknown_destinations_error *)
Definition of_vres (r : vres) : trap (result N) :=
  match r with
  | VOk n => Val (OkR n)
  | VErr t => Val (ErrR (otag_name t))
  | VUnknown _ => Val (ErrR "policy-onchain-no-unknown-outputs"%string)
  | VPanic => Trap
  end.

(** `dev_flags.as_ref().unwrap_or(&DEFAULT_DEV_FLAGS)`: the default has the flag off *)
Lemma dev_flag_default gp :
  CP.PolicyDevFlags_disable_beneficial_balance_checks
    (match CP.SimplePolicy_dev_flags gp with Some f => f | None => CP.mk_PolicyDevFlags false end) =
  disable_beneficial (abs_opolicy gp).
Proof. cbn [abs_opolicy disable_beneficial]. destruct (CP.SimplePolicy_dev_flags gp); reflexivity. Qed.

Theorem gen_beneficial_is_model prof swarn gp sum_in sum_out w :
  (sum_in <=? U64MAX) = true ->
  gen_validate_beneficial_value prof swarn gp sum_in sum_out w =
  of_vres (validate_beneficial (otag_filter swarn) (abs_opolicy gp) sum_in sum_out w).
Proof.
  intros Hfit. apply N.leb_le in Hfit.
  unfold gen_validate_beneficial_value, validate_beneficial. cbv beta zeta. rewrite dev_flag_default.
  unfold sub_checked. destruct (sum_out <=? sum_in) eqn:Hle; cbn [ok_or bindR of_vres]; [|reflexivity].
  apply N.leb_le in Hle.
  destruct (w =? 0) eqn:Hw.
  - apply N.eqb_eq in Hw. subst w.
    rewrite TxUtilGenProofs.gen_estimate_zero_weight by lia. reflexivity.
  - apply N.eqb_neq in Hw.
    rewrite TxUtilGenProofs.gen_estimate_is_model by lia.
    change (CommitmentPolicy.estimate_feerate_per_kw (sum_in - sum_out) w) with (estimate (sum_in - sum_out) w).
    norm. unfold otag_filter, policy_err. cbn [otag_name abs_opolicy max_feerate].
    destruct (CP.SimplePolicy_max_feerate_per_kw gp <? estimate (sum_in - sum_out) w); cbn [andb]; [|reflexivity].
    destruct (disable_beneficial (abs_opolicy gp)); cbn [negb andb]; [reflexivity|].
    destruct (swarn "policy-onchain-fee-range"%string); reflexivity.
Qed.

Lemma gen_sum_is_model (vals : list N) : forall acc,
  fold_r (fun s v => t1 <-? ok_or (add_checked s v) "policy-onchain-fee-range"%string ;; Val (OkR t1)) vals acc =
  match sum_checked vals acc with
  | Some s => Val (OkR s)
  | None => Val (ErrR "policy-onchain-fee-range"%string)
  end.
Proof.
  induction vals as [|v r IH]; intros acc; [reflexivity|].
  cbn [fold_r sum_checked]. destruct (add_checked acc v) as [s|]; cbn [ok_or bindR]; [apply IH | reflexivity].
Qed.

(** the fee tail of validate_onchain_tx = the last two steps of the model's [validate_onchain] *)
Theorem gen_fee_tail_is_model prof swarn gp ben vals w :
  gen_validate_onchain_tx_fee_tail prof swarn gp ben vals w =
  of_vres (match sum_checked vals 0 with
           | None => VErr T_fee_range
           | Some sin => validate_beneficial (otag_filter swarn) (abs_opolicy gp) sin ben w
           end).
Proof.
  unfold gen_validate_onchain_tx_fee_tail. cbv beta zeta.
  rewrite (gen_sum_is_model vals 0).
  destruct (sum_checked vals 0) as [sin|] eqn:S; cbn [bindR of_vres otag_name]; [|reflexivity].
  assert (Hs : sin <= U64MAX) by (apply (sum_checked_some _ _ _ S), N.le_0_l).
  rewrite gen_beneficial_is_model by (apply N.leb_le; exact Hs).
  destruct (validate_beneficial (otag_filter swarn) (abs_opolicy gp) sin ben w); reflexivity.
Qed.
