(** Proofs about Model/Secrets.v: the BOLT-3 derivation tree and the compact store, generic in the
    secret type, the hash and the flip (no assumption on the hash).  [derive_prefix] is the tree
    law; [store_inv] says what each slot holds after the indices 2^48-1 down to m were provided. *)
From Coq Require Import String.
From VLS Require Import Base.U64 Model.Secrets.
From VLS Require Base.Sha256Eval.

Definition p2 (i : nat) : N := 2 ^ N.of_nat i.

Lemma p2_S i : p2 (S i) = 2 * p2 i.
Proof. unfold p2. rewrite Nat2N.inj_succ, N.pow_succ_r'. reflexivity. Qed.
Lemma p2_pos i : 0 < p2 i.
Proof. unfold p2. apply N.neq_0_lt_0, N.pow_nonzero. discriminate. Qed.
Lemma p2_nz i : p2 i <> 0.
Proof. pose proof (p2_pos i). lia. Qed.
Lemma p2_add i j : p2 (i + j) = p2 i * p2 j.
Proof. unfold p2. rewrite Nat2N.inj_add, N.pow_add_r. reflexivity. Qed.
Lemma p2_0 : p2 0 = 1.
Proof. reflexivity. Qed.
Lemma p2_48 : p2 48 = TWO48.
Proof. vm_compute. reflexivity. Qed.
Lemma p2_lt i j : (i < j)%nat -> p2 i < p2 j.
Proof. intros. unfold p2. apply N.pow_lt_mono_r; lia. Qed.
Lemma p2_split i j : (i <= j)%nat -> p2 j = p2 i * p2 (j - i).
Proof. intros. rewrite <- p2_add. f_equal. lia. Qed.

Lemma low_succ x i :
  x mod p2 (S i) = x mod p2 i + p2 i * N.b2n (N.testbit x (N.of_nat i)).
Proof.
  rewrite p2_S, (N.mul_comm 2), N.mod_mul_r by (try apply p2_nz; discriminate).
  rewrite N.testbit_spec'. reflexivity.
Qed.

Lemma mod_p2_le x i j : (i <= j)%nat -> x mod p2 j = 0 -> x mod p2 i = 0.
Proof.
  intros Hij H. rewrite (p2_split i j Hij), N.mod_mul_r in H by apply p2_nz.
  apply N.eq_add_0 in H. tauto.
Qed.

Lemma mod0_mul x d : d <> 0 -> x mod d = 0 -> x = d * (x / d).
Proof. intros Hd H. pose proof (N.div_mod x d Hd). dlia. Qed.

Lemma clear_low_eq i k : clear_low i k = (k / p2 i) * p2 i.
Proof. unfold clear_low. rewrite N.shiftl_mul_pow2, N.shiftr_div_pow2. reflexivity. Qed.
Lemma clear_low_sub i k : clear_low i k = k - k mod p2 i.
Proof.
  rewrite clear_low_eq. pose proof (N.div_mod k (p2 i) (p2_nz i)). dlia.
Qed.
Lemma clear_low_le i k : clear_low i k <= k.
Proof. rewrite clear_low_sub. dlia. Qed.
Lemma clear_low_0 k : clear_low 0 k = k.
Proof. unfold clear_low. cbn [N.of_nat]. rewrite N.shiftr_0_r, N.shiftl_0_r. reflexivity. Qed.
Lemma clear_low_mod i k : clear_low i k mod p2 i = 0.
Proof. rewrite clear_low_eq. apply N.mod_mul, p2_nz. Qed.
Lemma clear_low_bits_lo i k b : (b < i)%nat -> N.testbit (clear_low i k) (N.of_nat b) = false.
Proof. intros. unfold clear_low. apply N.shiftl_spec_low. lia. Qed.
Lemma clear_low_bits_hi i k b : (i <= b)%nat -> N.testbit (clear_low i k) (N.of_nat b) = N.testbit k (N.of_nat b).
Proof.
  intros. unfold clear_low. rewrite N.shiftl_spec_high' by lia. rewrite N.shiftr_spec'.
  f_equal. lia.
Qed.
Lemma clear_low_unique i idx x :
  idx mod p2 i = 0 -> idx <= x < idx + p2 i -> clear_low i x = idx.
Proof.
  intros H0 Hx. rewrite clear_low_eq.
  pose proof (mod0_mul idx (p2 i) (p2_nz i) H0) as Hq. clear H0.
  set (q := idx / p2 i) in *. set (c := p2 i) in *. clearbody q c.
  assert (x / c = q) as -> by (symmetry; apply (N.div_unique x c q (x - idx)); lia). lia.
Qed.
Lemma clear_low_succ i k :
  clear_low (S i) k <= clear_low i k /\
  (clear_low (S i) k < clear_low i k ->
   clear_low i k = clear_low (S i) k + p2 i /\ clear_low i k mod p2 (S i) = p2 i).
Proof.
  rewrite !clear_low_sub.
  pose proof (N.mod_le k (p2 (S i)) (p2_nz _)) as Hle.
  pose proof (N.div_mod k (p2 (S i)) (p2_nz _)) as Hd.
  pose proof (p2_pos i) as Hp. pose proof (N.mod_lt k (p2 i) (p2_nz i)) as Hlt.
  rewrite low_succ in *.
  set (q := k / p2 (S i)) in *. clearbody q.
  set (r := k mod p2 i) in *. clearbody r.
  destruct (N.testbit k (N.of_nat i)); cbn [N.b2n] in *.
  - rewrite N.mul_1_r in *. split; [lia|]. intros _. split; [lia|].
    replace (k - r) with (p2 i + q * p2 (S i)) by lia.
    rewrite N.mod_add by apply p2_nz. apply N.mod_small. rewrite p2_S. lia.
  - rewrite N.mul_0_r, N.add_0_r in *. split; lia.
Qed.

(** [at_place i x]: the lowest set bit of x (among bits 0..47) is bit i; i = 48 when there is none *)
Definition at_place (i : nat) (x : N) : Prop :=
  ((i < 48)%nat /\ x mod p2 (S i) = p2 i) \/ (i = 48%nat /\ x mod p2 48 = 0).

Lemma at_place_le i x : at_place i x -> (i <= 48)%nat.
Proof. intros [[H _]|[H _]]; lia. Qed.

Lemma at_place_low i x : at_place i x -> x mod p2 i = 0.
Proof.
  intros [[_ H]|[-> H]]; [|exact H].
  rewrite low_succ in H. pose proof (N.mod_lt x (p2 i) (p2_nz i)).
  destruct (N.testbit x (N.of_nat i)); cbn [N.b2n] in H; dlia.
Qed.

Lemma at_place_fun i j x : at_place i x -> at_place j x -> i = j.
Proof.
  assert (forall a b, (a < b)%nat -> at_place a x -> at_place b x -> False) as Hlt.
  { intros a b Hab Ha Hb. pose proof (at_place_le _ _ Hb).
    pose proof (mod_p2_le x (S a) b Hab (at_place_low _ _ Hb)) as H0.
    destruct Ha as [[_ Ha]|[-> _]]; [|lia]. pose proof (p2_pos a). lia. }
  intros Hi Hj. destruct (Nat.lt_total i j) as [H|[H|H]]; [|exact H|]; exfalso; eauto.
Qed.

Lemma place_from_at x : forall n i, (i + n = 48)%nat -> x mod p2 i = 0 -> at_place (place_from n i x) x.
Proof.
  induction n as [|n IH]; intros i Hin H0; cbn [place_from].
  - right. split; [lia|]. replace 48%nat with i by lia. exact H0.
  - destruct (N.testbit x (N.of_nat i)) eqn:Hb.
    + left. split; [lia|]. rewrite low_succ, Hb, H0. cbn [N.b2n]. lia.
    + apply IH; [lia|]. rewrite low_succ, Hb, H0. cbn [N.b2n]. lia.
Qed.

Lemma place_secret_at x : at_place (place_secret x) x.
Proof. apply place_from_at; [reflexivity|]. rewrite p2_0. apply N.mod_1_r. Qed.

Lemma below_place idx pos i :
  idx < TWO48 -> at_place pos idx -> (i < pos)%nat ->
  at_place i (idx + p2 i) /\ idx + p2 i < TWO48.
Proof.
  intros Hlt Hpos Hi. pose proof (at_place_le _ _ Hpos) as Hle.
  pose proof (at_place_low _ _ Hpos) as H0. split.
  - left. split; [lia|].
    pose proof (mod_p2_le idx (S i) pos Hi H0) as H1.
    rewrite (mod0_mul idx (p2 (S i)) (p2_nz _) H1), N.add_comm, N.mul_comm.
    rewrite N.mod_add by apply p2_nz. apply N.mod_small. rewrite p2_S. pose proof (p2_pos i). lia.
  - pose proof (mod0_mul idx (p2 pos) (p2_nz _) H0) as Hq.
    pose proof (p2_split pos 48 Hle) as H48. rewrite p2_48 in H48.
    pose proof (p2_lt i pos Hi).
    set (q := idx / p2 pos) in *. clearbody q. set (c := p2 (48 - pos)) in *. clearbody c.
    assert (q < c) by (apply (N.mul_lt_mono_pos_l (p2 pos)); [apply p2_pos|lia]).
    assert (p2 pos * (q + 1) <= p2 pos * c) by (apply N.mul_le_mono_l; lia).
    lia.
Qed.

Lemma same_class_eq P x y :
  0 < P -> x mod (2 * P) = P -> y mod (2 * P) = P -> x <= y -> y < x + P -> x = y.
Proof.
  intros HP. assert (2 * P <> 0) as HM by lia. intros Hx Hy Hle Hlt.
  pose proof (N.div_mod x (2 * P) HM) as Dx. pose proof (N.div_mod y (2 * P) HM) as Dy.
  pose proof (N.div_le_mono x y (2 * P) HM Hle) as A.
  rewrite Hx in Dx. rewrite Hy in Dy.
  assert (y / (2 * P) < x / (2 * P) + 1) as B.
  { apply N.div_lt_upper_bound; [exact HM|]. rewrite N.mul_add_distr_l, N.mul_1_r. clear - Dx Hlt HP.
    set (a := 2 * P * (x / (2 * P))) in *. clearbody a. lia. }
  replace (y / (2 * P)) with (x / (2 * P)) in Dy by (clear - A B; lia). congruence.
Qed.

Lemma last_true (P : nat -> Prop) :
  (forall i, P i \/ ~ P i) -> P O -> forall n, P n \/ exists i, (i < n)%nat /\ P i /\ ~ P (S i).
Proof.
  intros Hdec H0. induction n as [|n IH]; [left; exact H0|].
  destruct (Hdec (S n)) as [H|H]; [left; exact H|]. right.
  destruct IH as [IH|[i [Hi [Hp Hn]]]].
  - exists n. split; [lia|]. split; assumption.
  - exists i. split; [lia|]. split; assumption.
Qed.

Lemma upd_nth_same {A} (v : A) : forall l n, (n < length l)%nat -> nth_error (upd n v l) n = Some v.
Proof.
  induction l as [|a l IH]; intros [|n] Hn; cbn [upd nth_error length] in *; try lia; [reflexivity|].
  apply IH; lia.
Qed.
Lemma upd_nth_other {A} (v : A) : forall l n i, i <> n -> nth_error (upd n v l) i = nth_error l i.
Proof.
  induction l as [|a l IH]; intros [|n] [|i] Hn; cbn [upd nth_error]; try reflexivity; try lia.
  apply IH; lia.
Qed.
Lemma upd_length {A} (v : A) : forall l n, length (upd n v l) = length l.
Proof. induction l as [|a l IH]; intros [|n]; cbn [upd length]; try reflexivity. rewrite IH. reflexivity. Qed.

Lemma forallb_firstn {A} (f : A -> bool) : forall n (l : list A),
  (forall i e, (i < n)%nat -> nth_error l i = Some e -> f e = true) -> forallb f (firstn n l) = true.
Proof.
  induction n as [|n IH]; intros [|a l] Hall; cbn [firstn forallb]; try reflexivity.
  rewrite (Hall O a) by (cbn [nth_error]; (lia || reflexivity)). cbn [andb].
  apply IH. intros i e Hi Hn. apply (Hall (S i)); [lia|exact Hn].
Qed.
Lemma forallb_firstn_nth {A} (f : A -> bool) : forall n (l : list A) i e,
  forallb f (firstn n l) = true -> (i < n)%nat -> nth_error l i = Some e -> f e = true.
Proof.
  induction n as [|n IH]; intros [|a l] i e H Hi Hn; try lia; [destruct i; discriminate|].
  cbn [firstn forallb] in H. apply andb_prop in H. destruct H as [H0 Hr].
  destruct i as [|i]; cbn [nth_error] in Hn; [injection Hn as <-; exact H0|].
  apply (IH l i e Hr); [lia|exact Hn].
Qed.

Section StoreProofs.
  Variable T : Type.
  Variable H : T -> T.
  Variable flip : nat -> T -> T.

  Local Notation dsec := (derive_secret T H flip).
  Local Notation bs := (build_commitment_secret T H flip).
  Local Notation getsec := (get_secret T H flip).

  Lemma derive_zero x : forall p s,
    (forall b, (b < p)%nat -> N.testbit x (N.of_nat b) = false) -> dsec s p x = s.
  Proof.
    induction p as [|p IH]; intros s Hz; cbn [derive_secret]; [reflexivity|].
    unfold dstep. rewrite Hz by lia. apply IH. intros; apply Hz; lia.
  Qed.

  Lemma derive_prefix_gen x k p : forall d s,
    (forall b, (b < p)%nat -> N.testbit x (N.of_nat b) = false) ->
    (forall b, (p <= b < d + p)%nat -> N.testbit x (N.of_nat b) = N.testbit k (N.of_nat b)) ->
    dsec s (d + p) k = dsec (dsec s (d + p) x) p k.
  Proof.
    induction d as [|d IH]; intros s Hz Ha; cbn [Nat.add derive_secret].
    - rewrite (derive_zero x p s Hz). reflexivity.
    - assert (dstep T H flip (d + p) k s = dstep T H flip (d + p) x s) as ->.
      { unfold dstep. rewrite Ha by lia. reflexivity. }
      apply IH; [exact Hz|]. intros; apply Ha; lia.
  Qed.

  Lemma derive_prefix seed k p : (p <= 48)%nat ->
    bs seed k = dsec (bs seed (clear_low p k)) p k.
  Proof.
    intros Hp. unfold build_commitment_secret.
    replace 48%nat with ((48 - p) + p)%nat by lia.
    apply derive_prefix_gen.
    - intros b Hb. apply clear_low_bits_lo; exact Hb.
    - intros b Hb. apply clear_low_bits_hi; lia.
  Qed.

  Lemma derive_low_zero s p x : x mod p2 p = 0 -> dsec s p x = s.
  Proof.
    intros H0. rewrite <- (clear_low_unique p x x H0) by (pose proof (p2_pos p); lia).
    apply derive_zero. intros b Hb. apply clear_low_bits_lo; exact Hb.
  Qed.

  Lemma put_same pos v (st : store T) : (pos <= length st)%nat -> nth_error (put T pos v st) pos = Some v.
  Proof.
    intros Hle. unfold put. destruct (Nat.ltb pos (length st)) eqn:E.
    - apply Nat.ltb_lt in E. apply upd_nth_same; exact E.
    - apply Nat.ltb_ge in E. rewrite nth_error_app2 by lia.
      replace (pos - length st)%nat with O by lia. reflexivity.
  Qed.
  Lemma put_other pos v (st : store T) i :
    i <> pos -> (pos <= length st)%nat -> nth_error (put T pos v st) i = nth_error st i.
  Proof.
    intros Hne Hle. unfold put. destruct (Nat.ltb pos (length st)) eqn:E.
    - apply upd_nth_other; exact Hne.
    - apply Nat.ltb_ge in E. destruct (Nat.lt_ge_cases i (length st)) as [Hi|Hi].
      + apply nth_error_app1; exact Hi.
      + rewrite nth_error_app2 by lia.
        destruct (i - length st)%nat as [|[|m]] eqn:Em; cbn [nth_error]; try lia;
          symmetry; apply nth_error_None; lia.
  Qed.
  Lemma put_length pos v (st : store T) :
    (pos <= length st)%nat -> length (put T pos v st) = Nat.max (length st) (S pos).
  Proof.
    intros Hle. unfold put. destruct (Nat.ltb pos (length st)) eqn:E.
    - apply Nat.ltb_lt in E. rewrite upd_length. lia.
    - apply Nat.ltb_ge in E. rewrite app_length. cbn [length]. lia.
  Qed.

  Lemma min_seen_above m (st : store T) : (forall e, In e st -> m < snd e) -> m < TWO48 -> m < min_seen T st.
  Proof.
    unfold min_seen. generalize TWO48. induction st as [|e st IH]; intros acc Hall Hacc; cbn [fold_left]; [exact Hacc|].
    apply IH; [intros; apply Hall; right; assumption|].
    pose proof (Hall e (or_introl eq_refl)). destruct (snd e <? acc); lia.
  Qed.

  Lemma get_from_found k v : forall (l : store T) o,
    (forall i e, nth_error l i = Some e -> clear_low (o + i) k = snd e -> dsec (fst e) (o + i) k = v) ->
    (exists i e, nth_error l i = Some e /\ clear_low (o + i) k = snd e) ->
    get_from T H flip o l k = Some v.
  Proof.
    induction l as [|e l IH]; intros o Hall [i [e' [Hn Hc]]].
    - destruct i; discriminate Hn.
    - cbn [get_from]. destruct (N.eqb (clear_low o k) (snd e)) eqn:E.
      + apply N.eqb_eq in E. f_equal. specialize (Hall O e eq_refl).
        rewrite Nat.add_0_r in Hall. apply Hall; exact E.
      + apply IH.
        * intros j e2 Hj Hcj. specialize (Hall (S j) e2 Hj).
          rewrite Nat.add_succ_r in Hall. apply Hall; exact Hcj.
        * destruct i as [|i].
          -- cbn [nth_error] in Hn. inversion Hn; subst e'. rewrite Nat.add_0_r in Hc.
             apply N.eqb_neq in E. contradiction.
          -- exists i, e'. split; [exact Hn|]. rewrite Nat.add_succ_r in Hc. exact Hc.
  Qed.

  (** from here on the equality test of the store matters (reflexivity is all that is used) *)
  Variable eqS : T -> T -> bool.
  Hypothesis eqS_refl : forall s, eqS s s = true.
  Local Notation provide := (provide_secret T H flip eqS).

  Lemma provide_accepts st idx s :
    (place_secret idx <= length st)%nat ->
    (forall i e, (i < place_secret idx)%nat -> nth_error st i = Some e ->
       eqS (dsec s (place_secret idx) (snd e)) (fst e) = true) ->
    idx < min_seen T st ->
    provide st idx s = (put T (place_secret idx) (s, idx) st, true).
  Proof.
    intros Hlen Hcons Hmin. unfold provide_secret, consistent.
    rewrite (proj2 (Nat.ltb_ge _ _) Hlen), (forallb_firstn _ _ _ Hcons), (proj2 (N.leb_gt _ _) Hmin).
    reflexivity.
  Qed.

  (** The invariant of a store that was fed the indices 2^48-1 down to m: slot i holds the
      secret of the least index >= m whose lowest set bit is i, whenever there is such an index *)
  Definition store_inv (seed : T) (m : N) (st : store T) : Prop :=
    (forall i s x, nth_error st i = Some (s, x) -> s = bs seed x /\ m <= x < TWO48 /\ at_place i x) /\
    (forall i j, m <= j < TWO48 -> at_place i j -> exists s x, nth_error st i = Some (s, x) /\ x <= j).

  Lemma inv_init seed : store_inv seed TWO48 (new_store T).
  Proof. split; [intros [|i] s x Hn; discriminate Hn|]. intros; lia. Qed.

  Lemma inv_length seed m st : store_inv seed m st -> (length st <= 49)%nat.
  Proof.
    intros [I1 _]. destruct (Nat.le_gt_cases (length st) 49) as [Hle|Hgt]; [exact Hle|exfalso].
    destruct (nth_error st 49) as [[s x]|] eqn:E.
    - destruct (I1 _ _ _ E) as [_ [_ Hp]]. apply at_place_le in Hp. lia.
    - apply nth_error_None in E. lia.
  Qed.

  Lemma inv_below seed idx st pos :
    store_inv seed (idx + 1) st -> idx < TWO48 -> at_place pos idx -> forall i, (i < pos)%nat ->
    exists s x, nth_error st i = Some (s, x) /\ clear_low pos x = idx.
  Proof.
    intros [I1 I2] Hidx Hpos i Hi. destruct (below_place idx pos i Hidx Hpos Hi) as [Hw Hwlt].
    pose proof (p2_pos i). pose proof (p2_lt i pos Hi).
    destruct (I2 i (idx + p2 i)) as (s & x & E & Hx); [lia|exact Hw|].
    exists s, x. split; [exact E|]. destruct (I1 _ _ _ E) as (_ & Hm & _).
    apply clear_low_unique; [apply at_place_low, Hpos|lia].
  Qed.

  Lemma inv_put seed idx st pos :
    store_inv seed (idx + 1) st -> idx < TWO48 -> at_place pos idx -> (pos <= length st)%nat ->
    store_inv seed idx (put T pos (bs seed idx, idx) st).
  Proof.
    intros [I1 I2] Hidx Hpos Hlen. pose proof (put_same pos (bs seed idx, idx) st Hlen) as Hnew. split.
    - intros i s x Hn. destruct (Nat.eq_dec i pos) as [->|Hne].
      + rewrite Hnew in Hn. inversion Hn; subst s x. split; [reflexivity|]. split; [lia|exact Hpos].
      + rewrite put_other in Hn by assumption. destruct (I1 _ _ _ Hn) as [Hs [Hx Hpl]].
        split; [exact Hs|]. split; [lia|exact Hpl].
    - intros i j Hj Hpj. destruct (Nat.eq_dec i pos) as [->|Hne].
      + exists (bs seed idx), idx. split; [exact Hnew|lia].
      + destruct (N.eq_dec j idx) as [->|Hji]; [destruct Hne; exact (at_place_fun _ _ idx Hpj Hpos)|].
        destruct (I2 i j) as (s & x & E & Hle); [lia|exact Hpj|].
        exists s, x. split; [rewrite put_other by assumption; exact E|exact Hle].
  Qed.

  Lemma inv_step seed idx st :
    store_inv seed (idx + 1) st -> idx < TWO48 ->
    exists st', provide st idx (bs seed idx) = (st', true) /\ store_inv seed idx st'.
  Proof.
    intros Hinv Hidx. pose proof (place_secret_at idx) as Hpos.
    pose proof (inv_below seed idx st _ Hinv Hidx Hpos) as Hbelow.
    assert (place_secret idx <= length st)%nat as Hlen.
    { destruct (Nat.le_gt_cases (place_secret idx) (length st)) as [Hle|Hgt]; [exact Hle|].
      destruct (Hbelow _ Hgt) as (s & x & E & _).
      rewrite (proj2 (nth_error_None st (length st)) (Nat.le_refl _)) in E. discriminate E. }
    exists (put T (place_secret idx) (bs seed idx, idx) st). split; [|apply inv_put; assumption].
    destruct Hinv as [I1 _]. apply provide_accepts; [exact Hlen| |].
    - (* a slot below the place holds a secret of the block of [idx]: derived from the new one *)
      intros i [s x] Hi Hn. cbn [fst snd]. destruct (I1 _ _ _ Hn) as [-> _].
      destruct (Hbelow i Hi) as (s' & x' & E & Hc). rewrite Hn in E. injection E as _ <-.
      rewrite (derive_prefix seed x _ (at_place_le _ _ Hpos)), Hc. apply eqS_refl.
    - apply min_seen_above; [|lia]. intros [s x] Hin. apply In_nth_error in Hin. destruct Hin as [i Hn].
      cbn [snd]. destruct (I1 _ _ _ Hn) as (_ & Hx & _). lia.
  Qed.

  Lemma inv_get seed m st k :
    store_inv seed m st -> m <= k < TWO48 -> getsec st k = Found (bs seed k).
  Proof.
    intros [I1 I2] Hk. unfold get_secret.
    rewrite (get_from_found k (bs seed k)); [reflexivity| |].
    - (* any matching slot gives the right secret *)
      intros i [s x] Hn Hc. cbn [fst snd Nat.add] in *.
      destruct (I1 _ _ _ Hn) as [-> [_ Hpl]].
      rewrite <- Hc. symmetry. apply derive_prefix. apply at_place_le in Hpl. exact Hpl.
    - (* and some slot matches: the last i with clear_low i k >= m *)
      cbn [Nat.add].
      destruct (last_true (fun i => m <= clear_low i k)) with (n := 48%nat) as [H48|[i [Hi [Hge Hlt]]]].
      { intros i. destruct (N.le_gt_cases m (clear_low i k)); [left; assumption|right; lia]. }
      { rewrite clear_low_0. lia. }
      + assert (clear_low 48 k = 0) as Hz.
        { rewrite clear_low_eq, p2_48, N.div_small by lia. reflexivity. }
        rewrite Hz in H48.
        destruct (I2 48%nat 0) as (s & x & E & Hle); [lia|right; split; [reflexivity|apply N.mod_0_l, p2_nz]|].
        exists 48%nat, (s, x). split; [exact E|]. cbn [snd]. lia.
      + destruct (clear_low_succ i k) as [_ Hs]. specialize (Hs ltac:(lia)) as [Hsum Hmod].
        pose proof (clear_low_le i k) as Hcle.
        destruct (I2 i (clear_low i k)) as (s & x & E & Hxle); [lia|left; split; assumption|].
        exists i, (s, x). split; [exact E|]. cbn [snd].
        destruct (I1 _ _ _ E) as [_ [Hx [[_ Hxm]|[Hc _]]]]; [|lia].
        symmetry. apply (same_class_eq (p2 i)); try (rewrite <- p2_S; assumption);
          [apply p2_pos|exact Hxle|lia].
  Qed.

  Lemma feed_first_inv seed : forall n, N.of_nat n <= TWO48 ->
    exists st, feed_first T H flip eqS seed n = (st, true) /\ store_inv seed (TWO48 - N.of_nat n) st.
  Proof.
    induction n as [|n IH]; intros Hn.
    - exists (new_store T). split; [reflexivity|]. rewrite N.sub_0_r. apply inv_init.
    - destruct IH as [st [Hf Hinv]]; [lia|].
      replace (TWO48 - N.of_nat n) with (idx_of_commit n + 1) in Hinv by (unfold idx_of_commit; lia).
      destruct (inv_step seed _ st Hinv) as [st' [Hp Hinv']]; [unfold idx_of_commit; lia|].
      exists st'. unfold feed_first in *. rewrite seq_S, fold_left_app, Hf. cbn [fold_left Nat.add feed].
      rewrite Hp. split; [reflexivity|].
      replace (TWO48 - N.of_nat (S n)) with (idx_of_commit n) by (unfold idx_of_commit; lia). exact Hinv'.
  Qed.

  Theorem feed_first_ok seed n : N.of_nat n <= TWO48 ->
    exists st, feed_first T H flip eqS seed n = (st, true) /\ (length st <= 49)%nat /\
      forall c, (c < n)%nat -> getsec st (idx_of_commit c) = Found (bs seed (idx_of_commit c)).
  Proof.
    intros Hn. destruct (feed_first_inv seed n Hn) as [st [Hf Hinv]].
    exists st. split; [exact Hf|]. split; [apply (inv_length _ _ _ Hinv)|].
    intros c Hc. apply (inv_get seed _ st _ Hinv). unfold idx_of_commit. lia.
  Qed.

  Lemma provide_refused_unchanged st idx s st' : provide st idx s = (st', false) -> st' = st.
  Proof.
    unfold provide_secret. intros Hp.
    destruct (Nat.ltb (length st) (place_secret idx)); [inversion Hp; reflexivity|].
    destruct (negb _); [inversion Hp; reflexivity|].
    destruct (min_seen T st <=? idx); inversion Hp.
  Qed.
End StoreProofs.

Section StoreSound.
  Variables (T : Type) (H : T -> T) (flip : nat -> T -> T) (eqS : T -> T -> bool).
  Hypothesis eqS_sound : forall a b, eqS a b = true -> a = b.

  Lemma provide_accepted_derives st idx s st' i o oi :
    provide_secret T H flip eqS st idx s = (st', true) ->
    (i < place_secret idx)%nat -> nth_error st i = Some (o, oi) ->
    derive_secret T H flip s (place_secret idx) oi = o.
  Proof.
    unfold provide_secret. intros Hp Hi Hn.
    destruct (Nat.ltb (length st) (place_secret idx)); [inversion Hp|].
    destruct (negb (consistent T H flip eqS s (place_secret idx) st)) eqn:Ec; [inversion Hp|].
    apply negb_false_iff in Ec. apply eqS_sound. exact (forallb_firstn_nth _ _ _ _ _ Ec Hi Hn).
  Qed.
End StoreSound.

(** The store reads its hash pointwise: closed examples run it on the SHA-256 of
    Base/Sha256Eval.v, which the checker evaluates far more cheaply than the reference. *)
Section HashExt.
  Variables (T : Type) (H H' : T -> T) (flip : nat -> T -> T) (eqS : T -> T -> bool).
  Hypothesis E : forall x, H x = H' x.

  Lemma derive_secret_ext bits : forall s idx, derive_secret T H flip s bits idx = derive_secret T H' flip s bits idx.
  Proof.
    induction bits as [|b IH]; intros s idx; cbn [derive_secret]; [reflexivity|].
    unfold dstep; rewrite E; apply IH.
  Qed.

  Lemma provide_secret_ext st idx s : provide_secret T H flip eqS st idx s = provide_secret T H' flip eqS st idx s.
  Proof.
    (* the hash enters through [consistent] alone: induction on the slots it checks *)
    unfold provide_secret, consistent.
    induction (firstn (place_secret idx) st) as [|e l IH]; cbn [forallb]; [reflexivity|].
    rewrite derive_secret_ext; destruct (eqS _ _); [exact IH | reflexivity].
  Qed.

  Lemma get_secret_ext st idx : get_secret T H flip st idx = get_secret T H' flip st idx.
  Proof.
    unfold get_secret; replace (get_from T H' flip 0 st idx) with (get_from T H flip 0 st idx); [reflexivity|].
    generalize 0%nat; induction st as [|e r IH]; intros i; cbn [get_from]; [reflexivity|].
    rewrite IH, derive_secret_ext; reflexivity.
  Qed.
End HashExt.

Definition ederive := derive_secret bytes Sha256Eval.sha256 flip_bit.
Lemma bderive_eval s bits idx : bderive s bits idx = ederive s bits idx.
Proof. apply derive_secret_ext, Sha256Eval.sha256_eval. Qed.
Lemma build_secret_eval seed idx : build_secret seed idx = ederive seed 48 idx.
Proof. apply bderive_eval. Qed.
Lemma bprovide_eval st idx s : bprovide st idx s = provide_secret bytes Sha256Eval.sha256 flip_bit bytes_eqb st idx s.
Proof. apply provide_secret_ext, Sha256Eval.sha256_eval. Qed.
Lemma bget_eval st idx : bget st idx = get_secret bytes Sha256Eval.sha256 flip_bit st idx.
Proof. apply get_secret_ext, Sha256Eval.sha256_eval. Qed.

(** Secrets of neighbouring commitment numbers share their walk down the tree.

    Numbers that differ in their low [p] bits only have one ancestor [a]; each of their secrets is
    [p] steps below it.  An example that handles several of them evaluates the 48 - p hashes down
    to [a] once. *)
Lemma build_secret_from (seed : bytes) (p : nat) (a k : N) :
  (p <= 48)%nat -> clear_low p k = a -> build_secret seed k = bderive (build_secret seed a) p k.
Proof. intros Hp <-. apply derive_prefix, Hp. Qed.

(** the secrets of commitment numbers 0 .. 7 of the seed 09..09 are at most three steps below this
    one (index 2^48 - 8): the examples of Props/C18.v on that seed share the 45 hashes down to it *)
Lemma nines_ancestor :
  build_secret (repeat_bytes 32 [9]) 281474976710648
  = of_hex "709699b4a24e740925b2b875f2996eb82fda7ca6a132a7840f04b27351112cc3".
Proof. rewrite build_secret_eval. vm_compute. reflexivity. Qed.

(** [feed_first] reads the seed only through the secrets it releases, and its hash pointwise *)
Lemma feed_first_secrets (T : Type) (H H' : T -> T) (flip : nat -> T -> T) (eqS : T -> T -> bool)
    (seed : T) (n : nat) (g : nat -> T) :
  (forall x, H x = H' x) ->
  (forall c, (c < n)%nat -> build_commitment_secret T H flip seed (idx_of_commit c) = g c) ->
  feed_first T H flip eqS seed n =
  fold_left (fun acc c => let '(st, ok) := acc in
                          let '(st1, r) := provide_secret T H' flip eqS st (idx_of_commit c) (g c) in
                          (st1, ok && r))
            (seq 0 n) (new_store T, true).
Proof.
  intros E Hg. unfold feed_first. generalize (new_store T, true).
  assert (Hin : forall c, In c (seq 0 n) -> (c < n)%nat) by (intros c Hc; apply in_seq in Hc; lia).
  induction (seq 0 n) as [|c l IH]; intros acc; cbn [fold_left]; [reflexivity|].
  rewrite IH by (intros; apply Hin; right; assumption).
  f_equal. unfold feed. destruct acc as [st ok].
  rewrite Hg, (provide_secret_ext T H H' flip eqS E) by (apply Hin; left; reflexivity). reflexivity.
Qed.
