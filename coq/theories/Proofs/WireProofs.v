(** C19 — proofs about the hand-written wire model: the StreamedPSBT post-processing, blob codecs
    under [blob_laws], the bundle [codec_ok] of what is proved of a codec, structs and TLV option
    structs as lists of fields, the generic registry round trip and the length framing. *)
From Coq Require Import List Arith NArith Lia Bool.
From VLS Require Import Base.Codec Base.Tlv Model.Wire.
Import ListNotations.
Open Scope N_scope.

Lemma map2_length {A B C} (f : A -> B -> C) la : forall lb,
  length la = length lb -> length (map2 f la lb) = length lb.
Proof.
  induction la as [|a la IH]; intros [|b lb] H; try discriminate; [reflexivity|].
  cbn [map2 length] in *. rewrite IH; [reflexivity|lia].
Qed.
Lemma txout_eqb_eq w o : txout_eqb w o = true -> w = o.
Proof.
  unfold txout_eqb. intros E. apply andb_true_iff in E. destruct E as [Ev Es].
  apply N.eqb_eq in Ev. apply bytes_eqb_eq in Es. destruct w, o. cbn in *. subst. reflexivity.
Qed.

(** What the streamed decoder hands on is the reference read off the encoded PSBT, and it accepts
    exactly the consistent ones: input by input, then for the list, then for the PSBT. *)
Definition ref_input (t : txin) (i : pinput) : pinput := {| i_nwu := None; i_wu := ref_prevout t i |}.

Lemma post_input_eq t i :
  post_input t i = if input_consistent t i then Some (ref_input t i, ref_flag t i) else None.
Proof.
  unfold post_input, input_consistent, ref_input, ref_prevout, ref_flag.
  destruct i as [[ptx|] wu]; cbn [i_nwu i_wu]; [|destruct (bare_claim_ok _); reflexivity].
  destruct (bytes_eqb (pt_txid ptx) (ti_txid t)); [|reflexivity]. cbn [negb andb].
  destruct (nth_N (pt_outs ptx) (ti_vout t)) as [o|]; [|reflexivity].
  destruct wu as [w|]; [|reflexivity].
  destruct (txout_eqb w o) eqn:E; [|reflexivity]. rewrite (txout_eqb_eq w o E). reflexivity.
Qed.

Lemma post_inputs_eq ts : forall ins,
  post_inputs ts ins =
  if Nat.eqb (length ts) (length ins) && forallb (fun b => b) (map2 input_consistent ts ins)
  then Some (map2 ref_input ts ins, map2 ref_flag ts ins) else None.
Proof.
  induction ts as [|t ts IH]; intros [|i ins]; try reflexivity.
  cbn [post_inputs length Nat.eqb map2 forallb]. rewrite post_input_eq, IH.
  destruct (input_consistent t i); cbn [andb]; [|rewrite andb_false_r; reflexivity].
  destruct (Nat.eqb _ _ && forallb _ _); reflexivity.
Qed.

Theorem streamed_post_eq p :
  streamed_post p =
  if streamable p
  then Some ({| p_tx := p_tx p; p_txins := p_txins p; p_inputs := map2 ref_input (p_txins p) (p_inputs p) |},
             map2 ref_flag (p_txins p) (p_inputs p))
  else None.
Proof.
  unfold streamed_post, streamable, psbt_ok. rewrite post_inputs_eq.
  destruct (unsigned_tx_ok p), (Nat.eqb _ _), (forallb (fun b => b) _); reflexivity.
Qed.

Theorem streamed_post_accepts_iff p :
  (exists r, streamed_post p = Some r) <-> streamable p = true.
Proof.
  rewrite streamed_post_eq. destruct (streamable p); split; [reflexivity|eauto|intros [r H]; discriminate|discriminate].
Qed.

Lemma map_map2 {A B C D} (g : C -> D) (f : A -> B -> C) la : forall lb,
  map g (map2 f la lb) = map2 (fun a b => g (f a b)) la lb.
Proof. induction la as [|a la IH]; intros [|b lb]; cbn [map2 map]; [..|rewrite IH]; reflexivity. Qed.

Lemma map2_snd {A B C} (g : B -> C) la : forall lb,
  length la = length lb -> map2 (fun (_ : A) b => g b) la lb = map g lb.
Proof.
  induction la as [|a la IH]; intros [|b lb] H; try discriminate; [reflexivity|].
  cbn [map2 map length] in *. rewrite IH; [reflexivity|lia].
Qed.

Lemma consistent_bare_ok ts : forall ins,
  forallb (fun b => b) (map2 input_consistent ts ins) = true -> length ts = length ins ->
  forallb bare_claim_ok ins = true.
Proof.
  induction ts as [|t ts IH]; intros [|i ins] Hc Hl; try discriminate; [reflexivity|].
  cbn [map2 forallb] in *. apply andb_true_iff in Hc. destruct Hc as [Hi Hc].
  rewrite (IH ins Hc) by (cbn [length] in Hl; lia). rewrite andb_true_r.
  unfold input_consistent in Hi. unfold bare_claim_ok in *. destruct (i_nwu i); [reflexivity|exact Hi].
Qed.

Section BlobProofs.
  Variable B : blob_ops.
  Hypothesis HB : blob_laws B.

  Lemma rt_ws_tx : roundtrip (enc_ws_tx B) (dec_ws_tx B) (wf_ws_tx B).
  Proof. apply rt_withsize. intros t _. apply (tx_rt B HB). Qed.

  Lemma rt_ws_psbt : roundtrip (enc_ws_psbt B) (dec_ws_psbt B) (wf_ws_psbt B).
  Proof. apply rt_withsize. intros p _. apply (psbt_rt B HB). Qed.

  Lemma rt_ws_streamed : roundtrip (enc_ws_streamed B) (dec_ws_streamed B) (wf_ws_streamed B).
  Proof.
    apply rt_withsize. intros p Hp. unfold parse_streamed.
    rewrite (psbt_rt B HB p). cbn [bind].
    destruct (proj2 (streamed_post_accepts_iff _) Hp) as [r Hr]. rewrite Hr. reflexivity.
  Qed.

  Lemma rt_proof : roundtrip (enc_proof B) (dec_proof B) (wf_proof B).
  Proof. intros p rest _. apply (proof_rt B HB). Qed.
End BlobProofs.

Lemma rt_OutPoint : roundtrip enc_OutPoint dec_OutPoint wf_OutPoint.
Proof.
  intros [t v] rest Hw. unfold wf_OutPoint in Hw. cbn [op_txid op_vout] in Hw.
  apply andb_true_iff in Hw. destruct Hw as [Ht Hv].
  unfold enc_OutPoint, dec_OutPoint. cbn [op_txid op_vout]. rewrite <- app_assoc.
  rewrite (rt_fixed 32 t _ Ht). cbn [bind]. rewrite (rt_u32le v rest Hv). reflexivity.
Qed.

Lemma ms_OutPoint : min_size enc_OutPoint wf_OutPoint 36.
Proof.
  intros [t v] Hw. unfold wf_OutPoint in Hw. cbn [op_txid op_vout] in Hw.
  apply andb_true_iff in Hw. destruct Hw as [Ht _].
  unfold enc_OutPoint. cbn [op_txid op_vout]. rewrite lenN_app.
  pose proof (ms_fixed 32 t Ht). unfold enc_u32le. rewrite lenN_le. lia.
Qed.

(** the typing predicates of the blob fields (their size bound follows from the message's) *)
Section BlobSizes.
  Variable B : blob_ops.
  Definition ty_any {A} (_ : A) : bool := true.
  Definition ty_streamed (x : PsbtT B) : bool := streamable (psbt_view B x).
End BlobSizes.

(** What is proved of a codec: under the premise [P] (the blob laws, for a codec with a blob
    inside) it inverts; from the size of an encoding follow its bounds ([ty]: the typing predicate,
    [k]: the least encoded size).
    [e = true]: the decoder reads its input to the end (a TLV option stream), so it inverts the
    encoder only when nothing follows. *)
Record codec_ok_at (P : Prop) (e : bool) (bound : N) {A} (enc : A -> bytes) (dec : dec_t A)
       (wf ty : A -> bool) (k : N) : Prop := {
  ok_rt : P -> if e then roundtrip_end enc dec wf else roundtrip enc dec wf;
  ok_sw : size_wf enc ty wf bound;
  ok_ms : min_size enc ty k }.
Arguments ok_rt {P e bound A enc dec wf ty k}. Arguments ok_sw {P e bound A enc dec wf ty k}.
Arguments ok_ms {P e bound A enc dec wf ty k}.
Definition codec_ok P bound {A} := @codec_ok_at P false bound A.

Lemma ok_rt_end {P e bound A} {enc : A -> bytes} {dec wf ty k} :
  codec_ok_at P e bound enc dec wf ty k -> P -> roundtrip_end enc dec wf.
Proof. intros [H _ _] HP. destruct e; [exact (H HP)|exact (roundtrip_to_end _ _ _ (H HP))]. Qed.

(** a struct's fields in declaration order; only the last may be one that reads to the end.
    The shapes [++ []] and [&& true] on [flast] are those of the printed [enc_T], [wf_T], [ty_T], with
    which the functions below must be convertible ([ok_T] is [exact (struct_ok F_T _ _)]). *)
Section Fields.
  Variable P : Prop.
  Variable bound : N.
  Variable R : Type.

  Inductive fields : bool -> list Type -> Type :=
  | fnil : fields false []
  | flast {A} (get : R -> A) {enc : A -> bytes} {dec wf ty k} :
      codec_ok_at P true bound enc dec wf ty k -> fields true [A]
  | fcons {A e Ts} (get : R -> A) {enc : A -> bytes} {dec wf ty k} :
      codec_ok P bound enc dec wf ty k -> fields e Ts -> fields e (A :: Ts).

  Fixpoint arrow (Ts : list Type) : Type :=
    match Ts with [] => R | A :: r => A -> arrow r end.

  Fixpoint enc_fields {e Ts} (fs : fields e Ts) (x : R) : bytes :=
    match fs with
    | fnil => []
    | @flast _ get enc _ _ _ _ _ => enc (get x) ++ []
    | @fcons _ _ _ get enc _ _ _ _ _ r => enc (get x) ++ enc_fields r x
    end.
  Fixpoint wf_fields {e Ts} (fs : fields e Ts) (x : R) : bool :=
    match fs with
    | fnil => true
    | @flast _ get _ _ wf _ _ _ => wf (get x) && true
    | @fcons _ _ _ get _ _ wf _ _ _ r => wf (get x) && wf_fields r x
    end.
  Fixpoint ty_fields {e Ts} (fs : fields e Ts) (x : R) : bool :=
    match fs with
    | fnil => true
    | @flast _ get _ _ _ ty _ _ => ty (get x) && true
    | @fcons _ _ _ get _ _ _ ty _ _ r => ty (get x) && ty_fields r x
    end.
  Fixpoint min_fields {e Ts} (fs : fields e Ts) : N :=
    match fs with
    | fnil => 0
    | @flast _ _ _ _ _ _ k _ => k
    | @fcons _ _ _ _ _ _ _ _ k _ r => k + min_fields r
    end.
  Fixpoint dec_fields {e Ts} (fs : fields e Ts) : arrow Ts -> dec_t R :=
    match fs in fields _ Ts return arrow Ts -> dec_t R with
    | fnil => fun mk bs => Some (mk, bs)
    | @flast _ _ _ dec _ _ _ _ => fun mk bs => bind (dec bs) (fun '(v, bs') => Some (mk v, bs'))
    | @fcons _ _ _ _ _ dec _ _ _ _ r => fun mk bs => bind (dec bs) (fun '(v, bs') => dec_fields r (mk v) bs')
    end.
  Fixpoint rebuild {e Ts} (fs : fields e Ts) : arrow Ts -> R -> R :=
    match fs in fields _ Ts return arrow Ts -> R -> R with
    | fnil => fun mk _ => mk
    | @flast _ get _ _ _ _ _ _ => fun mk x => mk (get x)
    | @fcons _ _ _ get _ _ _ _ _ _ r => fun mk x => rebuild r (mk (get x)) x
    end.

  Lemma fields_rt (HP : P) {e Ts} (fs : fields e Ts) : forall mk x rest, (if e then rest = [] else True) ->
    wf_fields fs x = true -> dec_fields fs mk (enc_fields fs x ++ rest) = Some (rebuild fs mk x, rest).
  Proof.
    induction fs as [|A get enc dec wf ty k p|A e Ts get enc dec wf ty k p r IH]; intros mk x rest He Hw;
      cbn [enc_fields wf_fields dec_fields rebuild] in *.
    - reflexivity.
    - apply andb_true_iff in Hw. destruct Hw as [Hw _].
      rewrite He, !app_nil_r, (ok_rt p HP _ Hw). reflexivity.
    - apply andb_true_iff in Hw. destruct Hw as [Hw Hr].
      rewrite <- app_assoc, (ok_rt p HP _ _ Hw). cbn [bind]. apply IH; assumption.
  Qed.

  Lemma fields_sw {e Ts} (fs : fields e Ts) x :
    ty_fields fs x = true -> lenN (enc_fields fs x) <= bound -> wf_fields fs x = true.
  Proof.
    induction fs as [|A get enc dec wf ty k p|A e Ts get enc dec wf ty k p r IH];
      cbn [enc_fields wf_fields ty_fields]; [reflexivity|..]; rewrite lenN_app; intros Ht Hs;
      apply andb_true_iff in Ht; destruct Ht as [Ht Hr]; apply andb_true_intro; split.
    - apply (ok_sw p _ Ht). lia.
    - reflexivity.
    - apply (ok_sw p _ Ht). lia.
    - apply (IH Hr). lia.
  Qed.

  Lemma fields_ms {e Ts} (fs : fields e Ts) x :
    ty_fields fs x = true -> min_fields fs <= lenN (enc_fields fs x).
  Proof.
    induction fs as [|A get enc dec wf ty k p|A e Ts get enc dec wf ty k p r IH];
      cbn [enc_fields ty_fields min_fields]; [lia|..]; rewrite lenN_app; intros Ht;
      apply andb_true_iff in Ht; destruct Ht as [Ht Hr]; pose proof (ok_ms p _ Ht).
    - lia.
    - pose proof (IH Hr). lia.
  Qed.

  Theorem struct_ok {e Ts} (fs : fields e Ts) (mk : arrow Ts) : (forall x, rebuild fs mk x = x) ->
    codec_ok_at P e bound (enc_fields fs) (dec_fields fs mk) (wf_fields fs) (ty_fields fs) (min_fields fs).
  Proof.
    intros Hmk. constructor; [intros HP|exact (fields_sw fs)|exact (fields_ms fs)].
    destruct e; intros x; [|intros rest]; intros Hw.
    - rewrite <- (app_nil_r (enc_fields fs x)), (fields_rt HP fs mk x [] eq_refl Hw), Hmk. reflexivity.
    - rewrite (fields_rt HP fs mk x rest I Hw), Hmk. reflexivity.
  Qed.
End Fields.
Arguments fnil {P bound R}. Arguments flast {P bound R A} get {enc dec wf ty k}.
Arguments fcons {P bound R A e Ts} get {enc dec wf ty k}.
Arguments struct_ok {P bound R e Ts}.

Section Leaves.
  Variable P : Prop.
  Variable bound : N.

  Lemma ok_leaf {A} {enc : A -> bytes} {dec wf k} :
    roundtrip enc dec wf -> min_size enc wf k -> codec_ok P bound enc dec wf wf k.
  Proof. intros R M. constructor; [intros _; exact R|apply sw_same|exact M]. Qed.

  Lemma ok_be n : codec_ok P bound (be_enc n) (dec_be n) (fits n) (fits n) (N.of_nat n).
  Proof. exact (ok_leaf (be_roundtrip n) (ms_be n)). Qed.
  Lemma ok_le n : codec_ok P bound (le_enc n) (dec_le n) (fits n) (fits n) (N.of_nat n).
  Proof. exact (ok_leaf (le_roundtrip n) (ms_le n)). Qed.
  Lemma ok_bool : codec_ok P bound enc_bool dec_bool wf_bool wf_bool 1.
  Proof. exact (ok_leaf rt_bool ms_bool). Qed.
  Lemma ok_fixed n : codec_ok P bound (enc_fixed n) (dec_fixed n) (wf_fixed n) (wf_fixed n) (N.of_nat n).
  Proof. exact (ok_leaf (rt_fixed n) (ms_fixed n)). Qed.
  Lemma ok_octets : codec_ok P bound enc_octets dec_octets wf_octets wf_octets 2.
  Proof. exact (ok_leaf rt_octets ms_octets). Qed.
  Lemma ok_wirestring : codec_ok P bound enc_wirestring dec_wirestring wf_wirestring wf_wirestring 1.
  Proof. exact (ok_leaf rt_wirestring ms_wirestring). Qed.
  Lemma ok_OutPoint : codec_ok P bound enc_OutPoint dec_OutPoint wf_OutPoint wf_OutPoint 36.
  Proof. exact (ok_leaf rt_OutPoint ms_OutPoint). Qed.
  Lemma ok_largeoctets : (bound <=? MAX_VEC_SIZE) = true ->
    codec_ok P bound enc_largeoctets dec_largeoctets wf_largeoctets ty_any 4.
  Proof. intros Hb. constructor; [intros _; apply rt_largeoctets|apply sw_largeoctets; exact Hb|apply ms_largeoctets]. Qed.

  Lemma ok_ws {A} {ser : A -> bytes} {dec wf ty} :
    (bound <=? MAX_VEC_SIZE) = true -> (P -> roundtrip (enc_withsize ser) dec (wf_withsize ser wf)) ->
    size_wf ser ty wf bound -> codec_ok P bound (enc_withsize ser) dec (wf_withsize ser wf) ty 4.
  Proof. intros Hb R S. constructor; [exact R|apply sw_withsize; assumption|apply ms_withsize]. Qed.

  Context {A : Type} {enc : A -> bytes} {dec : dec_t A} {wf ty : A -> bool} {k : N}.
  Hypothesis Hc : codec_ok P bound enc dec wf ty k.
  Lemma ok_option : codec_ok P bound (enc_option enc) (dec_option dec) (wf_option wf) (wf_option ty) 1.
  Proof. constructor; [intros HP; apply rt_option; apply Hc; exact HP|apply sw_option; apply Hc|apply ms_option]. Qed.
  Lemma ok_array : (bound <? k * 65536) = true ->
    codec_ok P bound (enc_array enc) (dec_array dec) (wf_array wf) (forallb ty) 2.
  Proof.
    intros Hb. constructor; [intros HP; apply rt_array; apply Hc; exact HP| |apply ms_array].
    exact (sw_array _ _ _ _ _ (ok_sw Hc) (ok_ms Hc) Hb).
  Qed.
  Lemma ok_array_counted : codec_ok P bound (enc_array enc) (dec_array dec) (wf_array wf) (wf_array ty) 2.
  Proof. constructor; [intros HP; apply rt_array; apply Hc; exact HP|apply sw_array_counted; apply Hc|apply ms_array]. Qed.
  Lemma ok_withsize : (bound <=? MAX_VEC_SIZE) = true ->
    codec_ok P bound (enc_withsize enc) (dec_withsize (exact dec)) (wf_withsize enc wf) ty 4.
  Proof.
    intros Hb. exact (ok_ws Hb (fun HP => rt_withsize _ _ _ (exact_of_roundtrip _ _ _ (ok_rt Hc HP))) (ok_sw Hc)).
  Qed.
End Leaves.
Arguments ok_be {P bound}. Arguments ok_le {P bound}. Arguments ok_bool {P bound}. Arguments ok_fixed {P bound}.
Arguments ok_octets {P bound}. Arguments ok_wirestring {P bound}. Arguments ok_OutPoint {P bound}.
Arguments ok_largeoctets {P}. Arguments ok_ws {P bound A ser dec wf ty}.
Arguments ok_option {P bound A enc dec wf ty k}. Arguments ok_array {P} bound {A enc dec wf ty k}.
Arguments ok_array_counted {P bound A enc dec wf ty k}. Arguments ok_withsize {P} bound {A enc dec wf ty k}.

Section BlobOk.
  Variable B : blob_ops.
  Variable bound : N.
  Hypothesis Hb : (bound <=? MAX_VEC_SIZE) = true.
  Lemma ok_ws_tx : codec_ok (blob_laws B) bound (enc_ws_tx B) (dec_ws_tx B) (wf_ws_tx B) ty_any 4.
  Proof. exact (ok_ws Hb (rt_ws_tx B) (sw_same _ _ _)). Qed.
  Lemma ok_ws_psbt : codec_ok (blob_laws B) bound (enc_ws_psbt B) (dec_ws_psbt B) (wf_ws_psbt B) ty_any 4.
  Proof. exact (ok_ws Hb (rt_ws_psbt B) (sw_same _ _ _)). Qed.
  Lemma ok_ws_streamed :
    codec_ok (blob_laws B) bound (enc_ws_streamed B) (dec_ws_streamed B) (wf_ws_streamed B) (ty_streamed B) 4.
  Proof. exact (ok_ws Hb (rt_ws_streamed B) (sw_same _ _ _)). Qed.
  Lemma ok_proof : codec_ok (blob_laws B) bound (enc_proof B) (dec_proof B) (wf_proof B) (wf_proof B) 0.
  Proof. constructor; [apply rt_proof|apply sw_same|apply ms_zero]. Qed.
End BlobOk.
Arguments ok_proof B {bound}.

(** a struct of TLV options (#[derive(SerBoltTlvOptions)]): its fields in ascending tag order *)
Section TlvFields.
  Variable P : Prop.
  Variable bound : N.
  Variable R : Type.

  Inductive tfields : list Type -> Type :=
  | tnil : tfields []
  | tcons {A Ts} (tag : N) (get : R -> option A) {enc : A -> bytes} {dec wf ty k} :
      codec_ok P bound enc dec wf ty k -> tfields Ts -> tfields (option A :: Ts).

  Fixpoint tlvf_of {Ts} (ts : tfields Ts) (x : R) : tlv_fields :=
    match ts with
    | tnil => []
    | @tcons _ _ tag get enc _ _ _ _ _ r => (tag, option_map enc (get x)) :: tlvf_of r x
    end.
  Fixpoint tags_of {Ts} (ts : tfields Ts) : list N :=
    match ts with tnil => [] | @tcons _ _ tag _ _ _ _ _ _ _ r => tag :: tags_of r end.
  Fixpoint wf_tfields {Ts} (ts : tfields Ts) (x : R) : bool :=
    match ts with
    | tnil => true
    | @tcons _ _ _ get _ _ wf _ _ _ r => wf_option wf (get x) && wf_tfields r x
    end.
  Fixpoint dec_tfields {Ts} (ts : tfields Ts) : arrow R Ts -> list (N * bytes) -> option (R * bytes) :=
    match ts in tfields Ts return arrow R Ts -> list (N * bytes) -> option (R * bytes) with
    | tnil => fun mk _ => Some (mk, [])
    | @tcons _ _ tag _ _ dec _ _ _ _ r => fun mk recs =>
        bind (dec_tlv_field dec (tlv_lookup tag recs)) (fun v => dec_tfields r (mk v) recs)
    end.
  Fixpoint rebuild_t {Ts} (ts : tfields Ts) : arrow R Ts -> R -> R :=
    match ts in tfields Ts return arrow R Ts -> R -> R with
    | tnil => fun mk _ => mk
    | @tcons _ _ _ get _ _ _ _ _ _ r => fun mk x => rebuild_t r (mk (get x)) x
    end.

  Lemma tags_of_tlvf {Ts} (ts : tfields Ts) x : map fst (tlvf_of ts x) = tags_of ts.
  Proof.
    induction ts as [|A Ts tag get enc dec wf ty k p r IH]; cbn [tlvf_of tags_of map fst]; [|rewrite IH];
      reflexivity.
  Qed.

  (** every field is looked up in the records of the whole stream [L] *)
  Lemma dec_tfields_present (HP : P) L x : tags_above None L = true ->
    forall Ts (ts : tfields Ts) mk, incl (tlvf_of ts x) L -> wf_tfields ts x = true ->
      dec_tfields ts mk (present L) = Some (rebuild_t ts mk x, []).
  Proof.
    intros HL. induction ts as [|A Ts tag get enc dec wf ty k p r IH]; intros mk Hin Hw;
      cbn [tlvf_of wf_tfields dec_tfields rebuild_t] in *; [reflexivity|].
    apply andb_true_iff in Hw. destruct Hw as [Hw Hr]. apply incl_cons_inv in Hin. destruct Hin as [Hin Hr'].
    rewrite (lookup_present L None _ _ HL Hin), (dec_tlv_field_rt _ _ _ _ (ok_rt p HP) Hw). cbn [bind].
    apply IH; assumption.
  Qed.

  Theorem tlv_ok {Ts} (ts : tfields Ts) (mk : arrow R Ts) : (forall x, rebuild_t ts mk x = x) ->
    let wf x := tags_above None (tlvf_of ts x) && wf_tfields ts x in
    codec_ok_at P true bound (fun x => enc_tlv (tlvf_of ts x))
      (fun bs => bind (parse_tlv (length bs) None bs) (fun recs =>
         if tlv_unknown_ok (tags_of ts) recs then dec_tfields ts mk recs else None))
      wf wf 0.
  Proof.
    intros Hmk wf. constructor; [|apply sw_same|apply ms_zero].
    intros HP x Hw. apply andb_true_iff in Hw. destruct Hw as [HL Hw].
    rewrite (parse_enc_tlv _ _ None HL (Nat.le_refl _)). cbn [bind].
    rewrite <- (tags_of_tlvf ts x), unknown_ok_present.
    rewrite (dec_tfields_present HP _ x HL Ts ts mk (incl_refl _) Hw), Hmk. reflexivity.
  Qed.
End TlvFields.
Arguments tnil {P bound R}. Arguments tcons {P bound R A Ts} tag get {enc dec wf ty k}.
Arguments tlv_ok {P bound R Ts}.

Lemma nodupb_NoDup l : nodupb l = true -> NoDup l.
Proof.
  induction l as [|x l IH]; intros H; [constructor|].
  cbn [nodupb] in H. apply andb_true_iff in H. destruct H as [Hx Hl]. constructor; [|auto].
  intros Hin. apply negb_true_iff in Hx.
  assert (existsb (N.eqb x) l = true) as E.
  { apply existsb_exists. exists x. split; [exact Hin|apply N.eqb_refl]. }
  congruence.
Qed.

Lemma lookup_nodup {M} (table : list (entry M)) :
  NoDup (map e_id table) -> forall e, In e table -> lookup table (e_id e) = Some e.
Proof.
  induction table as [|a t IH]; intros Hnd e Hin; [destruct Hin|].
  cbn [map] in Hnd. inversion Hnd as [|? ? Hnot Hnd']; subst. cbn [lookup].
  destruct Hin as [->|Hin]; [rewrite N.eqb_refl; reflexivity|].
  destruct (N.eqb_spec (e_id a) (e_id e)) as [E|_]; [|apply IH; assumption].
  exfalso. apply Hnot. rewrite E. apply in_map. exact Hin.
Qed.

(** the two length checks of from_vec / read pass *)
Lemma len_checked {A} n maxsz (o : option A) : 2 <= n -> n <= maxsz ->
  (if n <? 2 then None else if maxsz <? n then None else o) = o.
Proof. intros H2 Hm. destruct (N.ltb_spec n 2); [lia|]. destruct (N.ltb_spec maxsz n); [lia|reflexivity]. Qed.

Lemma lenN_typed ty (payload : bytes) : 2 <= lenN (enc_u16 ty ++ payload).
Proof. rewrite lenN_app. unfold enc_u16. rewrite lenN_be. lia. Qed.

Lemma from_vec_typed {M} maxsz (table : list (entry M)) ty payload :
  fits 2 ty = true -> lenN (enc_u16 ty ++ payload) <= maxsz ->
  from_vec maxsz table (enc_u16 ty ++ payload) =
  match lookup table ty with
  | Some e => match e_dec e payload with Some (m, []) => Some (Known m) | _ => None end
  | None => match payload with [] => Some (Unknown ty) | _ => None end
  end.
Proof.
  intros Hty Hs. unfold from_vec. rewrite (len_checked _ _ _ (lenN_typed ty payload) Hs).
  rewrite (rt_u16 ty payload Hty). reflexivity.
Qed.

Theorem registry_roundtrip {M} (maxsz : N) (table : list (entry M)) (id_of : M -> N)
        (enc : M -> bytes) (wf : M -> bool) :
  NoDup (map e_id table) ->
  (forall m, wf m = true ->
     fits 2 (id_of m) = true /\
     exists e, In e table /\ e_id e = id_of m /\ e_dec e (enc m) = Some (m, [])) ->
  forall m, wf m = true ->
    lenN (as_vec_of id_of enc m) <= maxsz ->
    from_vec maxsz table (as_vec_of id_of enc m) = Some (Known m).
Proof.
  intros Hnd Hall m Hw Hsz. destruct (Hall m Hw) as (Hid & e & Hin & He & Hdec).
  unfold as_vec_of in *. rewrite (from_vec_typed _ _ _ _ Hid Hsz), <- He, (lookup_nodup table Hnd e Hin), Hdec.
  reflexivity.
Qed.

Lemma lookup_first {M} (a : entry M) t ty : e_id a = ty -> lookup (a :: t) ty = Some a.
Proof. intros <-. cbn [lookup]. rewrite N.eqb_refl. reflexivity. Qed.

Lemma lookup_skip {M} (pre : list (entry M)) a post ty :
  ~ In ty (map e_id pre) -> e_id a = ty -> lookup (pre ++ a :: post) ty = Some a.
Proof.
  induction pre as [|x pre IH]; intros Hn Ha; [apply lookup_first; exact Ha|].
  cbn [app lookup]. cbn [map In] in Hn.
  destruct (N.eqb_spec (e_id x) ty) as [E|_]; [exfalso; apply Hn; left; exact E|].
  apply IH; [|exact Ha]. intros H. apply Hn. right. exact H.
Qed.

Lemma arm_ok {M A} (table : list (entry M)) (k : nat) {P e bound} {enc : A -> bytes} {dec wf ty n}
      {id} {ctor : A -> M} :
  codec_ok_at P e bound enc dec wf ty n -> P ->
  nth_error table k = Some {| e_id := id; e_dec := dec_map ctor dec |} ->
  forall x, wf x = true -> exists en, In en table /\ e_id en = id /\ e_dec en (enc x) = Some (ctor x, []).
Proof.
  intros Hc HP Hk x Hw. eexists. split; [exact (nth_error_In table k Hk)|]. split; [reflexivity|].
  cbn [e_dec]. unfold dec_map. rewrite (ok_rt_end Hc HP x Hw). reflexivity.
Qed.

(** The registry as data: for each message type its payload codec with its bundle, its constructor
    in the message sum, and the position of its arm in the dispatch table. *)
Section Registry.
  Variables (P : Prop) (bound : N) (M : Type) (table : list (entry M)).
  Variables (id_of index : M -> N) (enc : M -> bytes) (wf ty : M -> bool).

  Record arm := Arm {
    a_pos : nat; a_T : Type; a_ctor : a_T -> M;
    a_e : bool; a_enc : a_T -> bytes; a_dec : dec_t a_T; a_wf : a_T -> bool; a_ty : a_T -> bool; a_k : N;
    a_ok : codec_ok_at P a_e bound a_enc a_dec a_wf a_ty a_k }.
  Variable arms : list arm.

  (** [m] is the constructor of the arm at its index on some [x]; the functions of the sum are that
      arm's on [x]; the arm is in the table.  The first premise serves the proof of [cover] alone:
      evaluating it finds the arm, after which the others are [eq_refl]; the theorems below do not
      use it. *)
  Inductive covered (m : M) : Prop :=
    Covered (a : arm) (x : a_T a) :
      nth_error arms (N.to_nat (index m)) = Some a -> m = a_ctor a x ->
      enc m = a_enc a x -> wf m = a_wf a x -> ty m = a_ty a x -> fits 2 (id_of m) = true ->
      nth_error table (a_pos a) = Some {| e_id := id_of m; e_dec := dec_map (a_ctor a) (a_dec a) |} ->
      covered m.
  Hypothesis cover : forall m, covered m.

  Theorem registry_complete : P -> forall m, wf m = true ->
    fits 2 (id_of m) = true /\
    exists e, In e table /\ e_id e = id_of m /\ e_dec e (enc m) = Some (m, []).
  Proof.
    intros HP m Hw. destruct (cover m) as [a x _ -> He Hwf _ Hid Hn]. split; [exact Hid|].
    rewrite He. rewrite Hwf in Hw. exact (arm_ok table _ (a_ok a) HP Hn x Hw).
  Qed.

  Theorem registry_wf_from_size m (pre : bytes) :
    ty m = true -> lenN (pre ++ enc m) <= bound -> wf m = true.
  Proof.
    destruct (cover m) as [a x _ _ -> -> -> _ _]. rewrite lenN_app. intros Ht Hs.
    apply (ok_sw (a_ok a) x Ht). lia.
  Qed.
End Registry.
Arguments Arm {P bound M} a_pos {a_T} a_ctor {a_e a_enc a_dec a_wf a_ty a_k} a_ok.
Arguments covered {P bound M}.
Arguments registry_complete {P bound M table id_of index enc wf ty arms}.
Arguments registry_wf_from_size {P bound M table id_of index enc wf ty arms}.

Lemma dec_frame p rest : lenN p < 4294967296 -> dec_u32 (frame p ++ rest) = Some (lenN p, p ++ rest).
Proof. intros H. unfold frame. rewrite <- app_assoc. apply rt_u32. apply N.ltb_lt. exact H. Qed.
Lemma take_lenN (p rest : bytes) : take (N.to_nat (lenN p)) (p ++ rest) = Some (p, rest).
Proof. apply take_app. unfold lenN. lia. Qed.

Lemma from_vec_size {M} maxsz (table : list (entry M)) p m :
  from_vec maxsz table p = Some m -> 2 <= lenN p /\ lenN p <= maxsz.
Proof.
  unfold from_vec. destruct (N.ltb_spec (lenN p) 2); [discriminate|].
  destruct (N.ltb_spec maxsz (lenN p)); [discriminate|]. intros _. lia.
Qed.

Theorem read_frame {M} maxsz (table : list (entry M)) p m rest :
  maxsz < 4294967296 -> from_vec maxsz table p = Some m ->
  read maxsz table (frame p ++ rest) = Some (m, rest).
Proof.
  intros Hm H. destruct (from_vec_size _ _ _ _ H) as [H2 Hs]. unfold read.
  rewrite (dec_frame p rest) by lia. cbn [bind]. rewrite (len_checked _ _ _ H2 Hs), take_lenN. cbn [bind].
  rewrite H. reflexivity.
Qed.

Theorem read_stream_frames {M} maxsz (table : list (entry M)) (enc : M -> bytes) :
  maxsz < 4294967296 ->
  forall ms rest, (forall m, In m ms -> from_vec maxsz table (enc m) = Some (Known m)) ->
    read_stream maxsz table (length ms) (concat (map (fun m => frame (enc m)) ms) ++ rest)
    = Some (map Known ms, rest).
Proof.
  intros Hm. induction ms as [|m ms IH]; intros rest H; [reflexivity|].
  cbn [map concat length read_stream]. rewrite <- app_assoc.
  rewrite (read_frame maxsz table (enc m) (Known m) _ Hm (H m (or_introl eq_refl))).
  rewrite IH by (intros m' Hin; apply H; right; exact Hin). reflexivity.
Qed.

Theorem read_typed_frame {A} maxsz id (enc : A -> bytes) (dec : dec_t A) x rest :
  maxsz < 4294967296 -> dec (enc x) = Some (x, []) -> fits 2 id = true ->
  lenN (enc_u16 id ++ enc x) <= maxsz ->
  read_typed maxsz id dec (frame (enc_u16 id ++ enc x) ++ rest) = Some (x, rest).
Proof.
  intros Hm Hrt Hid Hs. unfold read_typed. rewrite dec_frame by lia. cbn [bind].
  rewrite (len_checked _ _ _ (lenN_typed id (enc x)) Hs), take_lenN. cbn [bind].
  rewrite (rt_u16 id _ Hid). cbn [bind]. rewrite N.eqb_refl, Hrt. reflexivity.
Qed.

(** the blob laws are satisfiable (used by the non-vacuity examples) *)
Definition B1 : blob_ops := {|
  TxT := bytes; tx_ser := fun b => b; tx_parse := fun w => Some w;
  PsbtT := bytes; psbt_view := fun _ => {| p_tx := []; p_txins := []; p_inputs := [] |};
  psbt_ser := fun b => b; psbt_parse := fun w => Some w;
  ProofT := unit; proof_ser := fun _ => []; proof_dec := fun bs => Some (tt, bs);
|}.
Lemma B1_laws : blob_laws B1.
Proof. constructor; cbn; try reflexivity. intros [] rest. reflexivity. Qed.
