(** Undoing the changes of a block last-to-first restores the state: per change, the
    backward application inverts the forward one on the state the forward pass produced
    ([cpre] is what that needs), and reverse order composes. *)
From VLS Require Import Model.Monitor Proofs.MonitorSets Proofs.MonitorDecode.

Section Flags.
Context {K : Type} (eqb : K -> K -> bool) (eqb_eq : forall a b, eqb a b = true <-> a = b).

Definition aflag (l : list (K * bool)) (x : K) : option bool :=
  option_map snd (find (fun p => eqb (fst p) x) l).

Lemma aflag_cons a l x : aflag (a :: l) x = if eqb (fst a) x then Some (snd a) else aflag l x.
Proof. unfold aflag. cbn [find]. destruct (eqb (fst a) x); reflexivity. Qed.

Lemma aflag_in l x : aflag l x <> None <-> In x (map fst l).
Proof.
  induction l as [|a r IH]; [cbn; tauto|]. rewrite aflag_cons. cbn [map In]. destruct (eqb (fst a) x) eqn:E.
  - apply eqb_eq in E. split; [auto | discriminate].
  - rewrite IH. split; [auto | intros [H | H]; [apply eqb_eq in H; congruence | exact H]].
Qed.
Lemma aflag_set l x b : forall l', set_first (fun p => eqb (fst p) x) (fun p => (fst p, b)) l = Some l' ->
  aflag l x <> None /\ forall y, aflag l' y = if eqb x y then Some b else aflag l y.
Proof.
  induction l as [|a r IH]; intros l' H; cbn [set_first] in H; [discriminate|]. rewrite aflag_cons.
  destruct (eqb (fst a) x) eqn:E.
  - inversion H; subst. split; [discriminate|]. intros y. rewrite !aflag_cons. cbn [fst snd].
    apply eqb_eq in E. rewrite E. destruct (eqb x y); reflexivity.
  - destruct (set_first _ _ r) as [r'|]; [|discriminate]. inversion H; subst. destruct (IH _ eq_refl) as [G1 G2].
    split; [exact G1|]. intros y. rewrite !aflag_cons, G2. destruct (eqb (fst a) y) eqn:Ey; [|reflexivity].
    destruct (eqb x y) eqn:Ex; [|reflexivity]. apply eqb_eq in Ey, Ex. subst. rewrite (proj2 (eqb_eq _ _) eq_refl) in E. discriminate.
Qed.
Lemma aflag_undo l x b b' : aflag l x = Some b ->
  exists l', set_first (fun p => eqb (fst p) x) (fun p => (fst p, b')) l = Some l'
    /\ set_first (fun p => eqb (fst p) x) (fun p => (fst p, b)) l' = Some l.
Proof.
  induction l as [|a r IH]; [discriminate|]. rewrite aflag_cons. cbn [set_first]. destruct (eqb (fst a) x) eqn:E; intros H.
  - injection H as <-. eexists. split; [reflexivity|]. cbn [set_first fst]. rewrite E. destruct a; reflexivity.
  - destruct (IH H) as [r' [H1 H2]]. rewrite H1. eexists. split; [reflexivity|]. cbn [set_first]. rewrite E, H2. reflexivity.
Qed.
Lemma aflag_snoc l y b0 x : aflag (l ++ [(y, b0)]) x =
  match aflag l x with Some b => Some b | None => if eqb y x then Some b0 else None end.
Proof.
  induction l as [|a r IH]; cbn [app]; rewrite !aflag_cons; [reflexivity|].
  destruct (eqb (fst a) x); [reflexivity | exact IH].
Qed.
Lemma aflag_all l x : forallb snd l = true -> aflag l x <> Some false.
Proof.
  induction l as [|a r IH]; cbn [forallb]; [discriminate|]. intros H. apply andb_true_iff in H. destruct H as [H1 H2].
  rewrite aflag_cons. destruct (eqb (fst a) x); [rewrite H1; discriminate | exact (IH H2)].
Qed.
Lemma aflag_const (ks : list K) b0 x b : aflag (map (fun i => (i, b0)) ks) x = Some b -> b = b0.
Proof. induction ks as [|k r IH]; cbn [map]; [discriminate|]. rewrite aflag_cons. destruct (eqb _ x); [intros E; injection E as <-; reflexivity | exact IH]. Qed.
End Flags.

(** [hflag cl] and [sflag cl] unfold to [aflag N.eqb (c_htlcs cl)] and [aflag op_eqb (c_second cl)]; the
    [aflag_*] lemmas apply to them as they stand. *)
Definition hflag (cl : closing) (v : N) : option bool :=
  option_map snd (find (fun p => fst p =? v) (c_htlcs cl)).
Definition sflag (cl : closing) (o : outpoint) : option bool :=
  option_map snd (find (fun p => op_eqb (fst p) o) (c_second cl)).

Definition cpre (x : core) (c : change) : Prop :=
  match c with
  | FundingConfirmed _ => fst x = None
  | UnilateralClose _ _ _ _ => snd x = None
  | OurOutputSpent v => exists cl, snd x = Some cl /\ c_our cl = Some (v, false)
  | HTLCOutputSpent v slo =>
      exists cl, snd x = Some cl /\ hflag cl v = Some false /\ ~ In slo (map fst (c_second cl))
  | SecondLevelSpent o => exists cl, snd x = Some cl /\ sflag cl o = Some false
  | _ => True
  end.

(** [chain_cpre k cs] unfolds to [crun cpre k cs] (MonitorDecode.v); the [crun_*] lemmas are its lemmas. *)
Fixpoint chain_cpre (k : core) (cs : list change) : Prop :=
  match cs with
  | [] => True
  | c :: r => cpre k c /\ forall k', core_fwd k c = Ok k' -> chain_cpre k' r
  end.

Lemma chain_cpre_app k a : forall b,
  chain_cpre k (a ++ b) <-> chain_cpre k a /\ (forall k', core_fwds k a = Ok k' -> chain_cpre k' b).
Proof. exact (crun_app cpre a k). Qed.

Definition needs_closing (c : change) : bool :=
  match c with OurOutputSpent _ | HTLCOutputSpent _ _ | SecondLevelSpent _ => true | _ => false end.
Definition new_slos (c : change) : list outpoint :=
  match c with HTLCOutputSpent _ slo => [slo] | _ => [] end.

Lemma core_fwd_flags k c k' : core_fwd k c = Ok k' -> needs_closing c = true ->
  exists cl cl', snd k = Some cl /\ k' = (fst k, Some cl') /\ c_txid cl' = c_txid cl
    /\ map fst (c_htlcs cl') = map fst (c_htlcs cl)
    /\ map fst (c_second cl') = map fst (c_second cl) ++ new_slos c
    /\ match c with
       | OurOutputSpent v => (exists b, c_our cl = Some (v, b)) /\ c_our cl' = Some (v, true)
       | _ => c_our cl' = c_our cl
       end
    /\ (forall y, hflag cl' y = match c with
                                | HTLCOutputSpent v _ => if v =? y then Some true else hflag cl y
                                | _ => hflag cl y
                                end)
    /\ (forall y, sflag cl' y = match c with
                                | SecondLevelSpent o => if op_eqb o y then Some true else sflag cl y
                                | HTLCOutputSpent _ slo =>
                                    match sflag cl y with Some b => Some b | None => if op_eqb slo y then Some false else None end
                                | _ => sflag cl y
                                end)
    /\ match c with
       | HTLCOutputSpent v _ => hflag cl v <> None
       | SecondLevelSpent o => sflag cl o <> None
       | _ => True
       end.
Proof.
  intros H Hc. destruct c as [| | | |v|v slo|o]; try discriminate; cbn [core_fwd] in H; unfold with_closing in H;
    destruct (snd k) as [cl|]; try discriminate; binv H as cl' E; inversion H; subst k'; clear H; exists cl, cl'; cbn [new_slos].
  - unfold set_our in E. destruct (c_our cl) as [[i b]|]; [|discriminate]. destruct (i =? v) eqn:Ei; [|discriminate].
    apply N.eqb_eq in Ei. subst i. inversion E; subst cl'. cbn. rewrite app_nil_r. repeat split; eauto.
  - binv E as clh Eh. inversion E; subst cl'. clear E. unfold set_htlc in Eh.
    destruct (set_first _ _ (c_htlcs cl)) as [h'|] eqn:Es; [|discriminate]. inversion Eh; subst clh.
    destruct (aflag_set N.eqb N.eqb_eq _ _ _ _ Es) as [G1 G2]. unfold push_second. cbn [c_txid c_our c_htlcs c_second].
    rewrite (set_first_map fst _ (fun p => (fst p, true)) _ _ (fun x => eq_refl) Es), map_app.
    repeat split; auto. intros y. exact (aflag_snoc op_eqb _ slo false y).
  - unfold set_second in E. destruct (set_first _ _ (c_second cl)) as [l'|] eqn:Es; [|discriminate]. inversion E; subst cl'.
    destruct (aflag_set op_eqb op_eqb_eq _ _ _ _ Es) as [G1 G2]. cbn [c_txid c_our c_htlcs c_second].
    rewrite (set_first_map fst _ (fun p => (fst p, true)) _ _ (fun x => eq_refl) Es), app_nil_r. repeat split; auto.
Qed.

Corollary core_fwd_closing k c k' : core_fwd k c = Ok k' -> needs_closing c = true ->
  exists cl cl', snd k = Some cl /\ k' = (fst k, Some cl').
Proof. intros H Hc. destruct (core_fwd_flags _ _ _ H Hc) as (cl & cl' & E1 & E2 & _). eauto. Qed.
Lemma core_fwd_ctxid k c k' : core_fwd k c = Ok k' -> needs_closing c = true -> ctxid_of k' = ctxid_of k.
Proof.
  intros H Hc. destruct (core_fwd_flags _ _ _ H Hc) as (cl & cl' & Ek & -> & Et & _).
  unfold ctxid_of. cbn [snd]. rewrite Ek. exact Et.
Qed.
Lemma change_removes_ctxid k k' c : ctxid_of k' = ctxid_of k -> change_removes k' c = change_removes k c.
Proof. intros E. destruct c; cbn [change_removes]; rewrite ?E; reflexivity. Qed.

Lemma cpre_frame k c k' c2 :
  core_fwd k c = Ok k' -> needs_closing c = true -> needs_closing c2 = true -> cpre k c2 ->
  change_removes k c <> change_removes k c2 -> (forall o, In o (new_slos c) -> ~ In o (new_slos c2)) ->
  cpre k' c2.
Proof.
  intros H Hc Hc2 Hp Hne Hslo. destruct (core_fwd_flags _ _ _ H Hc) as (cl & cl' & Ek & -> & Et & Eh & Es & Eo & Fh & Fs & _).
  destruct c2 as [| | | |v2|v2 slo2|o2]; try discriminate; cbn [cpre snd] in *; rewrite Ek in Hp;
    destruct Hp as [cl0 [E0 Hp]]; inversion E0; subst cl0; exists cl'; (split; [reflexivity|]).
  - destruct c as [| | | |v| |]; try discriminate; try (rewrite Eo; exact Hp).
    destruct Eo as [[b Eb] _]. rewrite Eb in Hp. inversion Hp; subst. exfalso. apply Hne. reflexivity.
  - destruct Hp as [Hh Hn]. split.
    + rewrite Fh. destruct c as [| | | | |v slo|]; try exact Hh.
      destruct (v =? v2) eqn:E; [|exact Hh]. apply N.eqb_eq in E. subst. exfalso. apply Hne. reflexivity.
    + rewrite Es. intros Hi. apply in_app_or in Hi. destruct Hi as [Hi | Hi]; [exact (Hn Hi)|]. exact (Hslo _ Hi (or_introl eq_refl)).
  - rewrite Fs. destruct c as [| | | | |v slo|o]; try exact Hp.
    + rewrite Hp. reflexivity.
    + destruct (op_eqb o o2) eqn:E; [|exact Hp]. apply op_eqb_eq in E. subst. exfalso. apply Hne. reflexivity.
Qed.

Lemma core_fwd_fst k c k' : core_fwd k c = Ok k' ->
  fst k' = match c with FundingConfirmed o => Some o | _ => fst k end.
Proof.
  intros H. destruct c.
  1-4: cbn [core_fwd] in H; inversion H; reflexivity.
  all: destruct (core_fwd_closing _ _ _ H eq_refl) as (cl & cl' & _ & ->); reflexivity.
Qed.

Lemma core_fwd_keeps k c k' : core_fwd k c = Ok k' ->
  (fst k' = None -> fst k = None /\ match c with FundingConfirmed _ => False | _ => True end)
  /\ (snd k' = None -> snd k = None /\ match c with UnilateralClose _ _ _ _ => False | _ => True end).
Proof.
  intros H. destruct c.
  1-4: cbn [core_fwd] in H; inversion H; subst; cbn [fst snd]; split; intros E; try discriminate E; auto.
  all: destruct (core_fwd_closing _ _ _ H eq_refl) as (cl & cl' & _ & ->); split; [auto | discriminate].
Qed.

Lemma filter_drop_last (o : outpoint) (l : list (outpoint * bool)) b :
  ~ In o (map fst l) ->
  filter (fun p => negb (op_eqb (fst p) o)) (l ++ [(o, b)]) = l.
Proof.
  induction l as [|y r IH]; intros H; cbn [app filter map In fst] in *.
  - rewrite op_eqb_refl. reflexivity.
  - assert (op_eqb (fst y) o = false) as -> by (apply op_eqb_neq; intros E; apply H; left; exact E).
    cbn [negb]. f_equal. apply IH. intros Hi. apply H. right. exact Hi.
Qed.

Lemma core_undo x c : cpre x c -> exists y, core_fwd x c = Ok y /\ core_bwd y c = Ok x.
Proof.
  destruct x as [f cl0]. destruct c; cbn [cpre core_fwd core_bwd fst snd]; intros H.
  - subst. eexists; split; reflexivity.
  - eexists; split; reflexivity.
  - subst. eexists; split; reflexivity.
  - eexists; split; reflexivity.
  - destruct H as [cl [-> Ho]]. unfold with_closing; cbn [fst snd]. unfold set_our. rewrite Ho, N.eqb_refl. cbn [bind].
    eexists; split; [reflexivity|]. cbn [bind snd fst c_our]. rewrite N.eqb_refl. cbn [bind c_txid c_htlcs c_second].
    destruct cl; cbn in *. subst. reflexivity.
  - destruct H as [cl [-> [Hh Hn]]]. unfold with_closing; cbn [fst snd].
    destruct (aflag_undo N.eqb _ _ _ true Hh) as [h' [H1 H2]].
    unfold set_htlc. rewrite H1. cbn [bind]. eexists; split; [reflexivity|].
    cbn [snd fst bind]. unfold set_htlc, push_second. cbn [c_htlcs c_txid c_our c_second]. rewrite H2. cbn [bind].
    unfold drop_second. cbn [c_htlcs c_txid c_our c_second]. rewrite (filter_drop_last _ _ _ Hn).
    destruct cl; reflexivity.
  - destruct H as [cl [-> Hs]]. unfold with_closing; cbn [fst snd].
    destruct (aflag_undo op_eqb _ _ _ true Hs) as [l' [H1 H2]].
    unfold set_second. rewrite H1. cbn [bind]. eexists; split; [reflexivity|].
    cbn [snd fst bind]. unfold set_second. cbn [c_htlcs c_txid c_our c_second]. rewrite H2. cbn [bind].
    destruct cl; reflexivity.
Qed.

(** [fwd_bwd_all] on cores alone; [fwd_bwd_all] does not go through it *)
Lemma cores_undo cs : forall k, chain_cpre k cs ->
  exists k', core_fwds k cs = Ok k' /\ core_bwds k' (rev cs) = Ok k.
Proof.
  induction cs as [|c r IH]; intros k H; cbn [chain_cpre core_fwds rev] in *.
  - exists k. split; reflexivity.
  - destruct H as [Hc Hr]. destruct (core_undo _ _ Hc) as [y [H1 H2]].
    destruct (IH y (Hr y H1)) as [k' [G1 G2]]. exists k'. rewrite H1. cbn [bind]. split; [exact G1|].
    rewrite core_bwds_app, G2. cbn [bind core_bwds]. rewrite H2. reflexivity.
Qed.

(** equality of states except for the heights that are handled per block
    (double spend, mutual close, the two swept heights) *)
Definition eqm (a b : state) : Prop :=
  height a = height b /\ funding_height a = funding_height b /\ fo a = fo b
  /\ unilateral_h a = unilateral_h b /\ clo a = clo b
  /\ saw_block a = saw_block b.

Lemma eqm_refl a : eqm a a.
Proof. unfold eqm. tauto. Qed.

(** the backward pass resets funding_height / unilateral_h to None; that is their old value because the
    outpoint / closing they belong to was absent ([cpre]), which is what [loc_inv] records *)
Definition loc_inv (s : state) : Prop :=
  (fo s = None -> funding_height s = None) /\ (clo s = None -> unilateral_h s = None).

Lemma opt_eqb_refl x : opt_eqb (Some x) x = true.
Proof. cbn. apply N.eqb_refl. Qed.

Lemma core_of_set_core s k : core_of (set_core s k) = k.
Proof. destruct k; reflexivity. Qed.

Definition dfw1 (h : N) (c : change) (d : option N) : option N :=
  match c with
  | FundingConfirmed _ => None
  | FundingInputSpent _ => match d with Some x => Some x | None => Some h end
  | _ => d
  end.
Definition dbw1 (h : N) (c : change) (d : option N) : option N :=
  match c with
  | FundingInputSpent _ => if opt_eqb d h then None else d
  | _ => d
  end.
Definition mfw1 (h : N) (c : change) (m : option N) : option N :=
  match c with MutualClose _ _ => Some h | _ => m end.
Definition mbw1 (c : change) (m : option N) : option N :=
  match c with MutualClose _ _ => None | _ => m end.

Definition fwd_state (s : state) (c : change) (k : core) : state :=
  let s1 := set_core s k in
  match c with
  | FundingConfirmed _ => set_dsh (set_fh s1 (Some (height s))) None
  | FundingInputSpent _ => set_dsh s1 (dfw1 (height s) c (dsh s))
  | UnilateralClose _ _ _ _ => set_uh s1 (Some (height s))
  | MutualClose _ _ => set_mh s1 (Some (height s))
  | _ => s1
  end.
Lemma apply_forward_eq s c :
  apply_forward s c = (k <- core_fwd (core_of s) c ;; Ok (fwd_state s c k, change_adds k c, change_removes k c)).
Proof. destruct c; reflexivity. Qed.
Lemma core_of_fwd_state s c k : core_of (fwd_state s c k) = k.
Proof. destruct k, c; reflexivity. Qed.
Lemma height_fwd_state s c k : height (fwd_state s c k) = height s.
Proof. destruct c; reflexivity. Qed.

Lemma apply_all_fwd_cons s c r s1 A R : apply_all apply_forward s (c :: r) = Ok (s1, A, R) ->
  exists k A2 R2, core_fwd (core_of s) c = Ok k /\ apply_all apply_forward (fwd_state s c k) r = Ok (s1, A2, R2)
    /\ A = change_adds k c ++ A2 /\ R = change_removes k c ++ R2.
Proof.
  cbn [apply_all]. rewrite apply_forward_eq. intros H. binv H as x E. binv E as k Ek. inversion E; subst x.
  binv H as y E2. destruct y as [[sb Ab] Rb]. inversion H; subst. exists k, Ab, Rb. auto.
Qed.

Definition bwd_guard (s : state) (c : change) : bool :=
  match c with
  | FundingConfirmed _ => opt_eqb (funding_height s) (height s)
  | UnilateralClose _ _ _ _ => opt_eqb (unilateral_h s) (height s)
  | _ => true
  end.
Definition bwd_state (s : state) (c : change) (k : core) : state :=
  let s1 := set_core s k in
  match c with
  | FundingConfirmed _ => set_fh s1 None
  | FundingInputSpent _ => set_dsh s1 (dbw1 (height s) c (dsh s))
  | UnilateralClose _ _ _ _ => set_uh s1 None
  | MutualClose _ _ => set_mh s1 None
  | _ => s1
  end.
Lemma apply_backward_eq fx s c : same_deltas fx = true ->
  apply_backward fx s c =
    if bwd_guard s c
    then k <- core_bwd (core_of s) c ;; Ok (bwd_state s c k, change_adds (core_of s) c, change_removes (core_of s) c)
    else Abort.
Proof. intros Hfx. destruct s, c; unfold apply_backward; cbn; rewrite ?Hfx; try reflexivity; destruct (opt_eqb _ _); reflexivity. Qed.

Record fwd_run (s : state) (cs : list change) (s1 : state) : Prop := {
  fr_core : core_fwds (core_of s) cs = Ok (core_of s1);
  fr_height : height s1 = height s;
  fr_dsh : dsh s1 = fold_left (fun d c => dfw1 (height s) c d) cs (dsh s);
  fr_mut : mutual_h s1 = fold_left (fun m c => mfw1 (height s) c m) cs (mutual_h s);
  fr_csh : closing_swept_h s1 = closing_swept_h s;
  fr_osh : our_swept_h s1 = our_swept_h s;
  fr_saw : saw_block s1 = saw_block s
}.

Lemma apply_all_fwd cs : forall s s1 A R, apply_all apply_forward s cs = Ok (s1, A, R) -> fwd_run s cs s1.
Proof.
  induction cs as [|c r IH]; intros s s1 A R H.
  - inversion H; subst. constructor; reflexivity.
  - destruct (apply_all_fwd_cons _ _ _ _ _ _ H) as (k & A2 & R2 & Ek & E2 & _).
    destruct (IH _ _ _ _ E2) as [I0 I1 I2 I3 I4 I5 I6]. rewrite core_of_fwd_state in I0. rewrite height_fwd_state in I1, I2, I3.
    constructor; cbn [core_fwds fold_left].
    + rewrite Ek. exact I0.
    + exact I1.
    + rewrite I2. f_equal. destruct c; reflexivity.
    + rewrite I3. f_equal. destruct c; reflexivity.
    + rewrite I4. destruct c; reflexivity.
    + rewrite I5. destruct c; reflexivity.
    + rewrite I6. destruct c; reflexivity.
Qed.

Definition bwd_rest (cs : list change) (s s' : state) : Prop :=
  dsh s' = fold_left (fun d c => dbw1 (height s) c d) cs (dsh s)
  /\ mutual_h s' = fold_left (fun m c => mbw1 c m) cs (mutual_h s)
  /\ closing_swept_h s' = closing_swept_h s /\ our_swept_h s' = our_swept_h s.

Lemma fwd_bwd_step fx s c :
  same_deltas fx = true -> cpre (core_of s) c -> loc_inv s ->
  exists k, core_fwd (core_of s) c = Ok k /\ loc_inv (fwd_state s c k) /\
    forall s1', eqm s1' (fwd_state s c k) ->
      exists s', apply_backward fx s1' c = Ok (s', change_adds k c, change_removes k c) /\ eqm s' s /\ bwd_rest [c] s1' s'.
Proof.
  intros Hfx Hp [Li1 Li2]. destruct (core_undo _ _ Hp) as [y [Hf Hb]]. exists y. split; [exact Hf|].
  assert (Hy : fo (fwd_state s c y) = fst y /\ clo (fwd_state s c y) = snd y) by (destruct c; split; reflexivity).
  split.
  { destruct (core_fwd_keeps _ _ _ Hf) as [K1 K2]. destruct Hy as [Hy1 Hy2]. unfold loc_inv. rewrite Hy1, Hy2.
    split; intros E; [destruct (K1 E) as [E0 Ec] | destruct (K2 E) as [E0 Ec]]; destruct c; try contradiction; cbn; first [apply Li1 | apply Li2]; exact E0. }
  intros s1' (E1 & E2 & E3 & E4 & E5 & E6).
  assert (Hk : core_of s1' = y) by (unfold core_of; rewrite E3, E5; destruct Hy as [-> ->]; destruct y; reflexivity).
  assert (Hh : height s1' = height s) by (rewrite E1; apply height_fwd_state).
  rewrite (apply_backward_eq fx s1' c Hfx), Hk, Hb.
  assert (Hg : bwd_guard s1' c = true).
  { destruct c; try reflexivity; cbn [bwd_guard]; rewrite ?E2, ?E4, Hh; apply opt_eqb_refl. }
  rewrite Hg. cbn [bind]. eexists. split; [reflexivity|]. split.
  - (* each compared field is untouched by [c], or is reset to None, which [Li1] / [Li2] with [Hp] say it was *)
    unfold eqm. rewrite <- Hh.
    destruct c as [o|o|txid f our htlcs|txid f|v|v slo|o]; cbn [cpre core_of fst snd] in Hp; cbn [bwd_state fwd_state set_core set_fh set_dsh set_uh set_mh height funding_height fo unilateral_h clo saw_block core_of fst snd] in *;
      repeat split; auto; symmetry; auto.
  - unfold bwd_rest. destruct c; cbn; auto.
Qed.

Lemma apply_all_app f a : forall s b s1 A1 R1 s2 A2 R2,
  apply_all f s a = Ok (s1, A1, R1) -> apply_all f s1 b = Ok (s2, A2, R2) ->
  apply_all f s (a ++ b) = Ok (s2, A1 ++ A2, R1 ++ R2).
Proof.
  induction a as [|c r IH]; intros s b s1 A1 R1 s2 A2 R2 H1 H2; cbn [apply_all app] in *.
  - inversion H1; subst. exact H2.
  - binv H1 as x E1. destruct x as [[sa Aa] Ra]. binv H1 as y E2. destruct y as [[sb Ab] Rb]. inversion H1; subst.
    rewrite E1. cbn [bind]. rewrite (IH _ _ _ _ _ _ _ _ E2 H2). cbn [bind]. rewrite <- !app_assoc. reflexivity.
Qed.

Lemma fwd_bwd_all fx cs : same_deltas fx = true -> forall s,
  chain_cpre (core_of s) cs -> loc_inv s ->
  exists s1 A R, apply_all apply_forward s cs = Ok (s1, A, R) /\ loc_inv s1 /\
    forall s1', eqm s1' s1 ->
      exists s' A' R', apply_all (apply_backward fx) s1' (rev cs) = Ok (s', A', R') /\ eqm s' s
        /\ bwd_rest (rev cs) s1' s'
        /\ (forall o, In o A' <-> In o A) /\ (forall o, In o R' <-> In o R).
Proof.
  intros Hfx. induction cs as [|c r IH]; intros s Hc Hl.
  - exists s, [], []. cbn [apply_all rev]. split; [reflexivity|]. split; [exact Hl|].
    intros s1' He. exists s1', [], []. split; [reflexivity|]. split; [exact He|]. unfold bwd_rest. cbn [fold_left]. tauto.
  - cbn [chain_cpre] in Hc. destruct Hc as [Hp Hr].
    destruct (fwd_bwd_step fx s c Hfx Hp Hl) as (k & Ek & Hla & Hb).
    destruct (IH (fwd_state s c k)) as [s1 [A2 [R2 [Hf2 [Hl1 Hb2]]]]]; [rewrite core_of_fwd_state; exact (Hr _ Ek) | exact Hla|].
    eexists s1, _, _. split.
    { cbn [apply_all]. rewrite apply_forward_eq, Ek. cbn [bind]. rewrite Hf2. reflexivity. }
    split; [exact Hl1|].
    intros s1' He. destruct (Hb2 s1' He) as [sa' [A2' [R2' (G1 & G2 & (B1 & B2 & B3 & B4) & G3 & G4)]]].
    destruct (Hb sa' G2) as [s' (G5 & G6 & C1 & C2 & C3 & C4)].
    eexists s', _, _. split.
    { cbn [rev]. eapply apply_all_app; [exact G1|]. cbn [apply_all]. rewrite G5. reflexivity. }
    split; [exact G6|]. split.
    { unfold bwd_rest. cbn [rev]. rewrite !fold_left_app. cbn [fold_left] in *.
      assert (Hh : height sa' = height s1') by (destruct G2 as [-> _]; destruct He as [-> _]; destruct (apply_all_fwd _ _ _ _ _ Hf2) as [_ -> _ _ _ _ _]; reflexivity).
      rewrite Hh in C1. rewrite C1, C2, C3, C4, B1, B2, B3, B4. auto. }
    split; intros o; rewrite !in_app_iff; cbn [In]; [rewrite G3 | rewrite G4]; tauto.
Qed.

Definition is_fc (c : change) : bool := match c with FundingConfirmed _ => true | _ => false end.
Definition is_fis (c : change) : bool := match c with FundingInputSpent _ => true | _ => false end.
Definition is_mutual (c : change) : bool := match c with MutualClose _ _ => true | _ => false end.

Lemma existsb_rev {A} (p : A -> bool) l : existsb p (rev l) = existsb p l.
Proof.
  induction l as [|x r IH]; cbn [rev existsb]; [reflexivity|].
  rewrite existsb_app, IH. cbn [existsb]. rewrite orb_false_r, orb_comm. reflexivity.
Qed.

Lemma dfw_some h x cs : existsb is_fc cs = false -> fold_left (fun d c => dfw1 h c d) cs (Some x) = Some x.
Proof.
  induction cs as [|c r IH]; cbn [existsb fold_left]; [reflexivity|].
  destruct c; cbn [is_fc orb dfw1]; try exact IH. discriminate.
Qed.
Lemma dfw_some_inv h cs : forall d x,
  fold_left (fun d c => dfw1 h c d) cs d = Some x -> d = Some x \/ (x = h /\ existsb is_fis cs = true).
Proof.
  induction cs as [|c r IH]; intros d x H; cbn [fold_left existsb] in *; [left; exact H|].
  destruct (IH _ _ H) as [E | [E1 E2]].
  - destruct c; cbn [dfw1 is_fis orb] in *; try (left; exact E); [discriminate|].
    destruct d as [y|]; [left; exact E | right; inversion E; subst; auto].
  - right. split; [exact E1|]. rewrite E2. apply orb_true_r.
Qed.
Lemma dbw_fold h cs : forall d,
  fold_left (fun d c => dbw1 h c d) cs d = if opt_eqb d h && existsb is_fis cs then None else d.
Proof.
  induction cs as [|c r IH]; intros d; cbn [fold_left existsb]; [rewrite andb_false_r; reflexivity|].
  rewrite IH. destruct c; cbn [dbw1 is_fis orb]; try reflexivity.
  destruct (opt_eqb d h) eqn:E; cbn [andb opt_eqb]; [reflexivity | rewrite E; reflexivity].
Qed.
Lemma dsh_undo h cs d0 :
  d0 <> Some h -> (existsb is_fc cs = true -> d0 = None) ->
  fold_left (fun d c => dbw1 h c d) (rev cs) (fold_left (fun d c => dfw1 h c d) cs d0) = d0.
Proof.
  intros Hn Hfc. rewrite dbw_fold, existsb_rev. destruct d0 as [x|].
  - rewrite dfw_some by (destruct (existsb is_fc cs); [specialize (Hfc eq_refl); discriminate | reflexivity]).
    cbn [opt_eqb]. destruct (x =? h) eqn:E; [apply N.eqb_eq in E; congruence | reflexivity].
  - destruct (fold_left _ cs None) as [y|] eqn:E; [|reflexivity].
    destruct (dfw_some_inv _ _ _ _ E) as [? | [-> ->]]; [discriminate|]. rewrite opt_eqb_refl. reflexivity.
Qed.

Lemma mfw_fold h cs : forall m, fold_left (fun m c => mfw1 h c m) cs m = if existsb is_mutual cs then Some h else m.
Proof.
  induction cs as [|c r IH]; intros m; cbn [fold_left existsb]; [reflexivity|]. rewrite IH.
  destruct c; cbn [mfw1 is_mutual orb]; try reflexivity. destruct (existsb is_mutual r); reflexivity.
Qed.
Lemma mbw_fold cs : forall m, fold_left (fun m c => mbw1 c m) cs m = if existsb is_mutual cs then None else m.
Proof.
  induction cs as [|c r IH]; intros m; cbn [fold_left existsb]; [reflexivity|]. rewrite IH.
  destruct c; cbn [mbw1 is_mutual orb]; try reflexivity. destruct (existsb is_mutual r); reflexivity.
Qed.
Lemma mutual_undo h cs m0 :
  (existsb is_mutual cs = true -> m0 = None) ->
  fold_left (fun m c => mbw1 c m) (rev cs) (if existsb is_mutual cs then Some h else m0) = m0.
Proof.
  intros Hm. rewrite mbw_fold, existsb_rev. destruct (existsb is_mutual cs); [rewrite (Hm eq_refl)|]; reflexivity.
Qed.
