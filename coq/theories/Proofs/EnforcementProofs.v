(** Invariants of the enforcement state machine (Model/Enforcement.v) over every request
    history, for both build profiles, under a filter that does not downgrade the tags the
    properties rely on.  Only accepted requests are followed: by Proofs/EnforcementModel.v any
    other request leaves slot and ledgers as they were. *)
From VLS Require Import Base.U64 Model.Enforcement Proofs.RustFacts.
From VLS Require Export Proofs.EnforcementModel.
From Coq Require Import ZifyBool ZifyN ZifyNat.

Local Open Scope N_scope.

Lemma secret_number_le idx : secret_number idx <= INITIAL_COMMITMENT_NUMBER.
Proof. unfold secret_number. lia. Qed.

Lemma secret_number_of_sub prof n idx :
  sub_p prof INITIAL_COMMITMENT_NUMBER n = Val idx -> secret_number idx <= n.
Proof.
  intros H. pose proof (secret_number_le idx) as Hi.
  destruct (N.le_gt_cases n INITIAL_COMMITMENT_NUMBER) as [Hle|Hgt]; [|lia].
  rewrite sub_p_ok in H by (exact Hle || (cbv; discriminate)). injection H as <-.
  unfold secret_number, INITIAL_COMMITMENT_NUMBER in *. rewrite N.mod_small; lia.
Qed.

Definition wf_op (o : op) : Prop :=
  match o with
  | ValidateHolder n _ _ _ | Revoke n _ | GetPoint n | GetSecret n | GetSecretOrNone n
  | SignHolder n | SignRedundant n _ _ | SignCp n _ _ _ | ValidateRevocation n _ _ _
  | HValidateOld n _ _ _ _ | HValidateNew n _ _ _ | HGetPointOld n | HRevoke n _ => n <= U64MAX
  | _ => True
  end.

Definition short (ops : list op) : Prop := 2 * N.of_nat (length ops) + 4 <= U64MAX.

(** a slot that is not set up counts as the fresh state a set-up would give it *)
Definition estate_of (s : slot) : estate :=
  match s with Stub => fresh_estate | Ready ch => mem ch end.

Section Histories.
Variable warn : tag -> bool.
Variable prof : profile.

(** [Inv b]: an invariant indexed by a bound [b] on the single requests served so far (never
    beyond [B]).  A request counts for two: a validating composite is its validation followed, if
    that was accepted, by a second single request or by an arithmetic abort that leaves the slot
    as it is. *)
Lemma gstep_twice (B : N) (Inv : N -> slot * ghost -> Prop) :
  (forall b sg, Inv b sg -> crash (fst sg) = fst sg /\ Inv (b + 1) sg) ->
  (forall b sg o, wf_op o -> single o -> b < B -> Inv b sg -> Inv (b + 1) (fst (gstep warn prof sg o))) ->
  forall b sg o, wf_op o -> b + 1 < B -> Inv b sg -> Inv (b + 2) (fst (gstep warn prof sg o)).
Proof.
  intros Hm Hs b sg o Hwf Hb Hi. replace (b + 2) with (b + 1 + 1) by lia.
  assert (H1 : forall o1, wf_op o1 -> single o1 -> Inv (b + 1) (fst (gstep warn prof sg o1)))
    by (intros; apply Hs; [| |lia|]; assumption).
  assert (H2 : forall sg1 o2, wf_op o2 -> single o2 -> Inv (b + 1) sg1 ->
                              Inv (b + 1 + 1) (fst (gstep warn prof sg1 o2)))
    by (intros; apply Hs; [| |lia|]; assumption).
  destruct o; try (apply Hm, H1; [exact Hwf | exact I]).
  - rewrite gstep_HValidateOld. specialize (H1 (ValidateHolder n c sig_ok pol_ok) Hwf I).
    destruct (st (snd _)); [apply H2; [exact Hwf | exact I | exact H1] | apply Hm, H1 ..].
  - rewrite gstep_HValidateNew by apply (Hm b sg Hi).
    specialize (H1 (ValidateHolder n c sig_ok pol_ok) Hwf I).
    destruct (st (snd _)); [| apply Hm, H1 ..].
    destruct (1 <=? n); [|apply H2; [exact I | exact I | exact H1]].
    destruct (add_p prof n 1) as [n1|] eqn:Ea; [|apply Hm, H1].
    apply H2; [exact (add_p_max prof n 1 n1 Ea) | exact I | exact H1].
Qed.

Lemma grun_inv (B : N) (Inv : N -> slot * ghost -> Prop) :
  (forall b sg, Inv b sg -> crash (fst sg) = fst sg /\ Inv (b + 1) sg) ->
  (forall b sg o, wf_op o -> single o -> b < B -> Inv b sg -> Inv (b + 1) (fst (gstep warn prof sg o))) ->
  forall ops b sg, Forall wf_op ops -> b + 2 * N.of_nat (length ops) <= B -> Inv b sg ->
  Inv (b + 2 * N.of_nat (length ops)) (grun warn prof sg ops).
Proof.
  intros Hm Hs. induction ops as [|o ops IH]; intros b sg Hwf Hb Hi; cbn [grun length] in *.
  - rewrite N.add_0_r. exact Hi.
  - inversion Hwf as [|? ? Ho Hr]; subst.
    replace (b + 2 * N.of_nat (S (length ops))) with (b + 2 + 2 * N.of_nat (length ops)) by lia.
    apply IH; [exact Hr | lia | apply gstep_twice with (B := B); try assumption; lia].
Qed.

Lemma grun_inv0 (Inv : slot * ghost -> Prop) :
  (forall sg, Inv sg -> crash (fst sg) = fst sg) ->
  (forall sg o, wf_op o -> single o -> Inv sg -> Inv (fst (gstep warn prof sg o))) ->
  forall ops sg, Forall wf_op ops -> Inv sg -> Inv (grun warn prof sg ops).
Proof.
  intros Hd Hs ops sg Hwf Hi.
  apply (grun_inv (2 * N.of_nat (length ops)) (fun _ => Inv)) with (b := 0); auto. lia.
Qed.

Lemma grun_durable ops sg :
  Forall wf_op ops -> crash (fst sg) = fst sg ->
  crash (fst (grun warn prof sg ops)) = fst (grun warn prof sg ops).
Proof.
  apply (grun_inv0 (fun sg => crash (fst sg) = fst sg)); [auto|].
  intros sg0 o _ Hp Hd. rewrite gstep_slot. apply single_durable; assumption.
Qed.

End Histories.

Section Holder.
Variable warn : tag -> bool.
Variable prof : profile.
Hypothesis W1 : warn TRevokeNewSigned = false.
Hypothesis W2 : warn TRevokeNotClosed = false.
Hypothesis W3 : warn THolderNotRevoked = false.
Hypothesis W4 : warn TOther = false.

Definition obtainable (nx n : N) (k : N) : Prop :=
  sat_add n 2 <= nx /\ exists idx, sub_p prof INITIAL_COMMITMENT_NUMBER n = Val idx /\ k = secret_number idx.

Record HI (b : N) (nx : N) (cur nxt : option content) (cl : bool)
          (val : list (N * content)) (dis : list N) (hs : list (N * content)) : Prop := {
  h_bnd : nx <= b;   (* [b]: bound on the requests served so far *)
  h_val : forall j, j < nx -> exists c, In (j, c) val;
  h_nxt : forall c, nxt = Some c -> In (nx, c) val;
  h_dis : forall k, In k dis -> k + 2 <= nx;
  h_sig : forall n c, In (n, c) hs -> nx <= n + 1;
  h_cl : hs <> [] -> cl = true;
  h_cur : cur = None <-> nx = 0;
  (* [nx + 2 <= U64MAX]: the counter is not within reach of the saturation point of the
     getters' bound *)
  h_all : nx + 2 <= U64MAX -> forall n k, n <= U64MAX -> obtainable nx n k -> In k dis
}.

Definition HInv (b : N) (e : estate) (g : ghost) : Prop :=
  HI b (next_h e) (cur_h e) (nxt_h e) (closed e) (validated g) (disclosed g) (hsigned g).

Definition HIe (b : N) (e : estate) val dis hs :=
  HI b (next_h e) (cur_h e) (nxt_h e) (closed e) val dis hs.

Lemma HI_init : HI 0 0 None None false [] [] [].
Proof.
  constructor.
  - reflexivity.
  - intros j H. clear - H. lia.
  - intros c H. discriminate.
  - intros k H. contradiction.
  - intros n c H. contradiction.
  - intros H. congruence.
  - split; reflexivity.
  - intros _ n k _ [H _]. unfold sat_add in H. assert (2 <= U64MAX) by (cbv; discriminate). clear - H H0. lia.
Qed.

Lemma HI_val_grow b nx cur nxt cl val dis hs x :
  HI b nx cur nxt cl val dis hs -> HI b nx cur nxt cl (x :: val) dis hs.
Proof.
  intros [A0 A B C D E F G]. constructor; auto.
  - intros j Hj. destruct (A j Hj) as [c Hc]. exists c. right. exact Hc.
  - intros c Hc. right. auto.
Qed.

Lemma HI_setnxt b nx cur nxt cl val dis hs c :
  HI b nx cur nxt cl val dis hs -> HI b nx cur (Some c) cl ((nx, c) :: val) dis hs.
Proof.
  intros H. destruct (HI_val_grow _ _ _ _ _ _ _ _ (nx, c) H) as [A0 A B C D E F G]. constructor; auto.
  intros c0 [= <-]. left. reflexivity.
Qed.

Lemma HI_close b nx cur nxt cl val dis hs :
  HI b nx cur nxt cl val dis hs -> HI b nx cur nxt true val dis hs.
Proof. intros [A0 A B C D E F G]. constructor; auto. Qed.

Lemma HI_mono b b' nx cur nxt cl val dis hs :
  HI b nx cur nxt cl val dis hs -> b <= b' -> HI b' nx cur nxt cl val dis hs.
Proof. intros [A0 A B C D E F G] Hb. constructor; auto. clear - A0 Hb. lia. Qed.

Lemma HI_hsig b nx cur nxt val dis hs n c :
  HI b nx cur nxt true val dis hs -> nx <= n + 1 -> HI b nx cur nxt true val dis ((n, c) :: hs).
Proof.
  intros [A0 A B C D E F G] Hn. constructor; auto.
  intros n0 c0 [H|H]; [inversion H; subst; exact Hn | eauto].
Qed.

Lemma HI_disclose b nx cur nxt cl val dis hs k :
  HI b nx cur nxt cl val dis hs -> k + 2 <= nx -> HI b nx cur nxt cl val (k :: dis) hs.
Proof.
  intros [A0 A B C D E F G] Hk. constructor; auto.
  - intros k0 [H|H]; [subst; exact Hk | auto].
  - intros Hb n k0 Hn Ho. right. eauto.
Qed.

Lemma obtainable_below nx n k : obtainable nx n k -> k + 2 <= nx.
Proof.
  intros [Hle [idx [Es ->]]].
  pose proof (secret_number_of_sub prof n idx Es) as H1.
  pose proof (secret_number_le idx) as H2.
  assert (Hi : INITIAL_COMMITMENT_NUMBER + 2 <= U64MAX) by (cbv; discriminate).
  clear - H1 H2 Hi Hle. unfold sat_add in *. lia.
Qed.

(** advancing the counter: every number that becomes obtainable must be in the new ledger *)
Lemma HI_advance b nx cur c cl val dis dis' hs :
  HI b nx cur (Some c) cl val dis hs ->
  (hs = [] \/ nx = 0) ->
  (forall k, In k dis -> In k dis') ->
  (forall k, In k dis' -> In k dis \/ k + 2 <= nx + 1) ->
  (nx + 3 <= U64MAX ->
   forall n k, n <= U64MAX -> obtainable (nx + 1) n k -> ~ sat_add n 2 <= nx -> In k dis') ->
  HI (b + 1) (nx + 1) (Some c) None cl val dis' hs.
Proof.
  intros [A0 A B C D E F G] Hs Hsub Hnew Hall. constructor.
  - clear - A0. lia.
  - intros j Hj. destruct (N.eq_dec j nx) as [->|Hne]; [exists c; apply B; reflexivity|].
    apply A. clear - Hj Hne. lia.
  - intros c0 Hc. discriminate.
  - intros k Hk. destruct (Hnew k Hk) as [H|H]; [specialize (C k H); clear - C; lia | exact H].
  - intros n c0 Hin. destruct Hs as [->| ->]; [contradiction | clear; lia].
  - exact E.
  - split; [discriminate | clear; lia].
  - intros Hb n k Hn Ho. destruct (N.le_gt_cases (sat_add n 2) nx) as [Hle|Hgt].
    + apply Hsub, (G ltac:(clear - Hb; lia) n k Hn). destruct Ho as [_ Hx]. split; assumption.
    + apply (Hall ltac:(clear - Hb; lia) n k Hn Ho). clear - Hgt. lia.
Qed.

(** the one request number that becomes obtainable with the advance from [nx] is [nx - 1], and
    its secret (none when [nx = 0]) goes into the ledger with it *)
Lemma HI_advance_opt b nx cur c cl val dis hs s :
  HI b nx cur (Some c) cl val dis hs ->
  (hs = [] \/ nx = 0) ->
  match s with
  | None => nx = 0
  | Some k => 1 <= nx /\ obtainable (nx + 1) (nx - 1) k
  end ->
  HI (b + 1) (nx + 1) (Some c) None cl val (opt_cons s dis) hs.
Proof.
  intros HH Hs Hk. apply (HI_advance _ _ _ _ _ _ _ _ _ HH Hs).
  - intros k Hin. destruct s; [right|]; exact Hin.
  - intros k Hin. destruct s as [k0|]; [destruct Hin as [<-|Hin]|]; auto. right. apply (obtainable_below _ _ _ (proj2 Hk)).
  - intros Hb n k Hn [Hsat [idx [Hsub ->]]] Hgt.
    (* the bound is not saturated: [n + 2 = nx + 1] *)
    assert (Hn1 : n = nx - 1 /\ 1 <= nx) by (unfold sat_add in *; clear - Hb Hsat Hgt; lia).
    destruct Hn1 as [-> Hnx]. destruct s as [k0|]; [|clear - Hk Hnx; lia].
    destruct Hk as [_ [_ [idx' [Hsub' ->]]]]. left. congruence.
Qed.

Lemma secret_res_obtainable w e n k :
  w TRevokeNewSigned = false -> secret_res w prof e n = Some (Val k) ->
  obtainable (next_h e) n k.
Proof.
  intros Hw. unfold secret_res, perr. rewrite Hw. cbn [negb]. rewrite andb_true_r.
  destruct (next_h e <? sat_add n 2) eqn:E; [discriminate|].
  destruct (sub_p prof INITIAL_COMMITMENT_NUMBER n) as [idx|] eqn:Es; [|discriminate].
  intros [= <-]. split; [clear - E; lia | eauto].
Qed.

Lemma validate_holder_state_next e n c :
  validate_holder_state warn prof e n c = Some true -> next_h e <= n + 1.
Proof.
  unfold validate_holder_state, perr. rewrite W3.
  destruct (add_p prof n 1) as [n1|]; [|discriminate].
  destruct (add_p prof n 2) as [n2|] eqn:E2; [|discriminate]. apply add_p_upper in E2.
  destruct (if n1 =? next_h e then _ else _) as [r|]; [|discriminate].
  intros [= H]. clear - H E2. lia.
Qed.

Ltac bump := eapply HI_mono; [| apply N.le_add_r].

Lemma HIe_secret w b e n k val dis hs :
  w TRevokeNewSigned = false ->
  HIe b e val dis hs -> secret_res w prof e n = Some (Val k) -> HIe b e val (k :: dis) hs.
Proof. intros Hw HH Hs. apply HI_disclose; [exact HH | apply (obtainable_below _ n), (secret_res_obtainable w e n k Hw Hs)]. Qed.

Lemma release_ok_post b e n val dis hs n1 s :
  HIe b e val dis hs -> rel_cases warn prof e n (ok_ps n1 s) ->
  HIe b e val (opt_cons s dis) hs.
Proof.
  intros HH Hr. inversion Hr as [| | |? k H1 Hs]; subst; [exact HH|].
  exact (HIe_secret warn b e (n - 1) k _ _ _ W1 HH Hs).
Qed.

Lemma HI_sign b e n c val dis hs :
  HIe b e val dis hs -> next_h e <= n + 1 -> HIe (b + 1) (set_closed e) val dis ((n, c) :: hs).
Proof.
  intros HH Hn. unfold HIe in *. unfold set_closed. cbn [closed next_h cur_h nxt_h]. bump.
  apply HI_hsig; [eapply HI_close; exact HH | exact Hn].
Qed.

(** the counterparty-side requests do not touch the holder side *)
Definition hpf (e : estate) := (next_h e, cur_h e, nxt_h e, closed e).

Lemma set_cp_commit_hpf e n pt c e' : set_cp_commit e n pt c = Some e' -> hpf e' = hpf e.
Proof.
  unfold set_cp_commit. destruct (n =? 0); [discriminate|].
  destruct (if n =? next_c e + 1 then _ else _) as [[ppt pc] cc0].
  destruct (if next_c e + 1 <=? n then _ else _) as [cpt cc]. intros [= <-]. reflexivity.
Qed.

Lemma set_cp_revoke_hpf e n secs e' : set_cp_revoke e n secs = Some e' -> hpf e' = hpf e.
Proof. unfold set_cp_revoke. destruct (n =? 0); [discriminate|]. intros [= <-]. reflexivity. Qed.

Lemma HIe_hpf b e e' val dis hs : hpf e' = hpf e -> HIe b e val dis hs -> HIe b e' val dis hs.
Proof. unfold hpf, HIe. intros [= -> -> -> ->]. auto. Qed.

(** the holder invariant along an accepted request *)
Lemma acc_post b e o e' r val dis hs :
  b <= U64MAX -> acc warn prof e o e' r -> HIe b e val dis hs ->
  HIe (b + 1) e' (opt_cons (validated_by o) val) (opt_cons (o_secret r) dis) (opt_cons (o_hsig r) hs).
Proof.
  intros Hb H HH.
  induction H as [n c|c|n py n1 s Hne Hr|py Hx|c n1 s Hx Hc Hr|c H0 Hx| |n k Hs| |n k Hs
                 |n n1 c Ea Hn Hc|n c Hc Hs|n c Hv| |n pt c n1 n2 e' _ _ _ Hs|r p sec chn r1 r2 secs e' _ _ _ _ Hs
                 | |n k Hs|n py e' r _ _ IH| ]; try exact IH; try (apply HI_sign; [exact HH|]);
    unfold HIe in *; unfold advance_h, set_nxt_h, set_closed;
    cbn [validated_by fst snd mem persist next_h cur_h nxt_h closed st o_secret o_hsig opt_cons ok0 ok_point ok_ps].
  (* in the order of [acc]'s constructors; for the three holder-signing requests what is left is
     [next_h e <= n + 1] of [HI_sign] *)
  - bump. apply HI_val_grow, HH.
  - bump. eapply HI_setnxt, HH.
  - bump. exact (release_ok_post b _ n _ _ _ _ _ HH Hr).
  - bump. exact HH.
  - rewrite Hx in HH. unfold perr in Hc. rewrite W2 in Hc.
    eapply HI_advance_opt; [exact HH | left | ].
    + destruct hs; [reflexivity|]. rewrite (h_cl _ _ _ _ _ _ _ _ HH) in Hc; discriminate.
    + inversion Hr as [| | |? k H1 Hs]; subst; [assumption|].
      exact (conj H1 (secret_res_obtainable warn _ _ k W1 Hs)).
  - rewrite Hx in HH. apply (HI_advance_opt _ _ _ _ _ _ _ _ None HH); [right|]; exact H0.
  - bump. exact HH.
  - bump. exact (HIe_secret warn b _ n k _ _ _ W1 HH Hs).
  - bump. exact HH.
  - bump. exact (HIe_secret strict b _ n k _ _ _ eq_refl HH Hs).
  - apply add_p_upper in Ea. unfold perr in Hn. rewrite W4 in Hn. clear - Ea Hn. lia.
  - (* the counter is at least 1, since there is a current commitment, and at most [b] *)
    pose proof (h_bnd _ _ _ _ _ _ _ _ HH). pose proof (h_cur _ _ _ _ _ _ _ _ HH) as [_ Hz]. rewrite Hc in Hz.
    assert (Hnx : 1 <= next_h e <= U64MAX)
      by (destruct (N.eq_dec (next_h e) 0) as [H0|H0]; [specialize (Hz H0); discriminate | clear - H H0 Hb; lia]).
    rewrite sub_p_ok in Hs by tauto. injection Hs as <-. clear - Hnx. lia.
  - exact (validate_holder_state_next _ _ _ Hv).
  - bump. eapply HI_close; exact HH.
  - bump. exact (HIe_hpf b e e' _ _ _ (set_cp_commit_hpf _ _ _ _ _ Hs) HH).
  - bump. exact (HIe_hpf b e e' _ _ _ (set_cp_revoke_hpf _ _ _ _ Hs) HH).
  - bump. exact HH.
  - bump. exact (HIe_secret warn b _ (n - 2) k _ _ _ W1 HH Hs).
  - bump. exact HH.
Qed.

Definition HSInv (b : N) (sg : slot * ghost) : Prop :=
  crash (fst sg) = fst sg /\ HInv b (estate_of (fst sg)) (snd sg).

Lemma HSInv_mono b sg : HSInv b sg -> crash (fst sg) = fst sg /\ HSInv (b + 1) sg.
Proof. intros [Hd HH]. split; [|split]; try exact Hd. unfold HInv in *. bump. exact HH. Qed.

Lemma hs_single b sg o :
  single o -> b < U64MAX -> HSInv b sg -> HSInv (b + 1) (fst (gstep warn prof sg o)).
Proof.
  intros Hp Hb Hi. destruct sg as [s g].
  split; [rewrite gstep_slot; apply single_durable; [exact Hp | apply Hi]|].
  destruct Hi as [Hd HH]. cbn [fst snd] in *. unfold HInv in *.
  destruct (gstep_single warn prof s g o Hd Hp) as [r _| -> | ch ch' r -> _ Hacc]; cbn [fst snd].
  - bump. exact HH.
  - bump. destruct o; exact HH.
  - exact (acc_post b _ o _ _ _ _ _ (N.lt_le_incl _ _ Hb) Hacc HH).
Qed.

Lemma hs_run ops b sg :
  Forall wf_op ops -> b + 2 * N.of_nat (length ops) <= U64MAX -> HSInv b sg ->
  HSInv (b + 2 * N.of_nat (length ops)) (grun warn prof sg ops).
Proof.
  apply (grun_inv warn prof U64MAX HSInv); [exact HSInv_mono|].
  intros; apply hs_single; assumption.
Qed.

Definition reach (ops : list op) : slot * ghost := grun warn prof (Stub, ghost0) ops.

Lemma reach_inv ops :
  Forall wf_op ops -> short ops -> HSInv (2 * N.of_nat (length ops)) (reach ops).
Proof.
  intros Hwf Hs. unfold short in Hs.
  apply (hs_run ops 0 (Stub, ghost0) Hwf); [lia|]. split; [reflexivity | exact HI_init].
Qed.

(** C01: a disclosed secret has a validated successor *)
Lemma disclosed_needs_successor ops k :
  Forall wf_op ops -> short ops ->
  In k (disclosed (snd (reach ops))) -> exists c, In (k + 1, c) (validated (snd (reach ops))).
Proof.
  intros Hwf Hs Hin. destruct (reach_inv ops Hwf Hs) as [_ HH].
  apply (h_val _ _ _ _ _ _ _ _ HH). pose proof (h_dis _ _ _ _ _ _ _ _ HH k Hin) as Hk. clear - Hk. lia.
Qed.

Lemma stub_discloses_nothing ops :
  Forall wf_op ops -> short ops ->
  fst (reach ops) = Stub -> disclosed (snd (reach ops)) = [].
Proof. intros _ _ Hst. unfold reach in *. rewrite (grun_to_stub warn prof ops _ Hst). reflexivity. Qed.

(** C02: signed-for-broadcast and revoked are disjoint *)
Lemma signed_not_disclosed ops k n c :
  Forall wf_op ops -> short ops ->
  In k (disclosed (snd (reach ops))) -> In (n, c) (hsigned (snd (reach ops))) -> k < n.
Proof.
  intros Hwf Hs Hk Hn. destruct (reach_inv ops Hwf Hs) as [_ HH].
  pose proof (h_dis _ _ _ _ _ _ _ _ HH k Hk) as H1. pose proof (h_sig _ _ _ _ _ _ _ _ HH n c Hn) as H2.
  clear - H1 H2. lia.
Qed.

Definition from_obtainable (e : estate) (o : option N) : Prop :=
  forall k, o = Some k -> exists m, m <= U64MAX /\ obtainable (next_h e) m k.

Lemma rel_cases_sec e n r :
  n <= U64MAX -> rel_cases warn prof e n r -> from_obtainable e (o_secret r).
Proof.
  intros Hn Hr k Hk. destruct Hr as [| |n1 H0|n1 k' H1 Hs]; try discriminate Hk. injection Hk as ->.
  exists (n - 1). split; [clear - Hn; lia | apply (secret_res_obtainable warn e (n - 1) k W1 Hs)].
Qed.

Lemma do_revoke_sec ch n py :
  n <= U64MAX -> closed (mem ch) = true ->
  from_obtainable (mem ch) (o_secret (snd (do_revoke warn prof ch n py))).
Proof.
  intros Hn Hc.
  destruct (do_revoke_cases warn prof ch n py) as [| |n1 s Hne Hr| |c|c n1 s _ _ _ Hx _];
    cbn [snd o_secret refused aborted ok_ps]; try (intros k Hk; discriminate).
  - exact (rel_cases_sec _ n _ Hn Hr).
  - unfold perr in Hx. rewrite Hc, W2 in Hx. discriminate.
Qed.

(** what an accepted request on a closed channel discloses was obtainable before: a closed channel
    does not advance *)
Lemma acc_secret_src e o e' r :
  acc warn prof e o e' r -> wf_op o -> closed e = true -> from_obtainable e (o_secret r).
Proof.
  intros H.
  induction H as [| |n py n1 s Hne Hr| |c n1 s Hx Hc Hr| | |n k0 Hs| |n k0 Hs| | | | | | | |n k0 Hs|n py e' r Hn _ IH| ];
    intros Hwf Hcl; cbn [wf_op] in Hwf; try exact (IH Hn Hcl);
    unfold from_obtainable; cbn [o_secret ok0 ok_point ok_ps]; try (intros k [=]; fail).
  - exact (rel_cases_sec e n _ Hwf Hr).
  - unfold perr in Hc. rewrite Hcl, W2 in Hc. discriminate.
  - intros k [= <-]. exists n. split; [exact Hwf | apply (secret_res_obtainable warn e n _ W1 Hs)].
  - intros k [= <-]. exists n. split; [exact Hwf | apply (secret_res_obtainable strict e n _ eq_refl Hs)].
  - intros k [= <-]. exists (n - 2). split; [clear - Hwf; lia | apply (secret_res_obtainable warn e _ _ W1 Hs)].
Qed.

Lemma handler_secret ch o :
  wf_op o -> closed (mem ch) = true ->
  from_obtainable (mem ch) (o_secret (snd (handler warn prof o ch))).
Proof.
  intros Hwf Hc.
  assert (Hs : forall o, wf_op o -> single o ->
                         from_obtainable (mem ch) (o_secret (snd (handler warn prof o ch)))).
  { intros o1 Hw1 Hp. destruct (single_eff warn prof o1 ch Hp) as [r H| | |e r H|e|_]; cbn [snd];
      try (intros k [=]; fail); exact (acc_secret_src _ _ _ _ H Hw1 Hc). }
  destruct o; try exact (Hs _ Hwf I); cbn [handler wf_op] in *; unfold and_then;
    destruct (do_validate_cases warn prof ch n c sig_ok pol_ok);
    cbn [st snd fst refused aborted ok0 o_secret]; try (intros k [=]; fail).
  (* the validation changes neither counter nor flag, and the second request answers on its image *)
  all: try exact (do_revoke_sec ch n pay_ok Hwf Hc);
       try exact (do_revoke_sec (persist (set_nxt_h (mem ch) (Some c))) n pay_ok Hwf Hc).
  all: unfold do_get_point, do_activate, tbind; cases; cbn [snd o_secret refused aborted ok_point];
       intros k [=].
Qed.

(** C02, second half: after a holder signature was released, a request discloses only
    secrets that had been disclosed before *)
Lemma frozen_step b sg o :
  wf_op o -> b + 2 <= U64MAX -> HSInv b sg -> hsigned (snd sg) <> [] ->
  incl (disclosed (snd (fst (gstep warn prof sg o)))) (disclosed (snd sg)).
Proof.
  intros Hwf Hb [_ HH] Hsig. destruct sg as [s g]. cbn [fst snd] in *.
  pose proof (h_cl _ _ _ _ _ _ _ _ HH Hsig) as Hc. destruct s as [|ch]; [discriminate Hc|].
  pose proof (handler_secret ch o Hwf Hc) as Hfo.
  rewrite gstep_eq, step_ready. cbn [fst snd disclosed estate_of] in *.
  destruct (o_secret _) as [k|]; [|apply incl_refl]. intros k' [<-|Hk']; [|exact Hk'].
  destruct (Hfo k eq_refl) as [m [Hm Ho]]. pose proof (h_bnd _ _ _ _ _ _ _ _ HH) as Hnx.
  exact (h_all _ _ _ _ _ _ _ _ HH ltac:(clear - Hnx Hb; lia) m k Hm Ho).
Qed.

Lemma frozen_after_signature ops o k :
  Forall wf_op ops -> wf_op o -> short (ops ++ [o]) ->
  hsigned (snd (reach ops)) <> [] ->
  In k (disclosed (snd (reach (ops ++ [o])))) -> In k (disclosed (snd (reach ops))).
Proof.
  intros Hwf Ho Hs Hsig. unfold short in Hs. rewrite app_length in Hs. cbn [length] in Hs.
  unfold reach at 1. rewrite grun_app. cbn [grun].
  apply (frozen_step (2 * N.of_nat (length ops))); try assumption; [lia|].
  apply reach_inv; [exact Hwf | unfold short; lia].
Qed.

(** Forms of the lemmas above and of the case lemmas of EnforcementModel.v that the C01 entry of MANIFEST.json
    points at by file; nothing in the development uses them. *)

Lemma HI_val_opt b nx cur nxt cl val dis hs o :
  HI b nx cur nxt cl val dis hs -> HI b nx cur nxt cl (opt_cons o val) dis hs.
Proof. destruct o; cbn [opt_cons]; [apply HI_val_grow | auto]. Qed.

Lemma add_p_le a b v : add_p prof a b = Val v -> v <= U64MAX.
Proof using W1 W2 W3 W4. apply add_p_max. Qed.   (* [using]: stated over the filter hypotheses, needs none *)

Lemma secret_res_ok e n k :
  secret_res warn prof e n = Some (Val k) -> n <= U64MAX ->
  obtainable (next_h e) n k /\ k + 2 <= next_h e.
Proof.
  intros H _. pose proof (secret_res_obtainable warn e n k W1 H) as Ho. exact (conj Ho (obtainable_below _ _ _ Ho)).
Qed.

Lemma validate_holder_state_true e n c :
  validate_holder_state warn prof e n c = Some true -> n <= U64MAX -> n <= next_h e + 1 ->
  next_h e <= n + 1.
Proof. intros H _ _. exact (validate_holder_state_next e n c H). Qed.

Lemma release_post b e n val dis hs :
  HIe b e val dis hs -> n <= U64MAX ->
  let r := release warn prof e n in
  (st r = Abort -> o_secret r = None /\ o_hsig r = None) /\
  (st r <> Abort -> o_hsig r = None /\ HIe b e val (opt_cons (o_secret r) dis) hs).
Proof.
  intros HH _. cbv zeta. destruct (release_cases warn prof e n) as [| |n1 H0|n1 k H1 Hs];
    (split; [try discriminate; auto | intros _; split; [reflexivity|]]); try exact HH.
  exact (HIe_secret warn b e (n - 1) k _ _ _ W1 HH Hs).
Qed.

Lemma release_nohsig e n : o_hsig (release warn prof e n) = None.
Proof. destruct (release_cases warn prof e n); reflexivity. Qed.

Lemma do_validate_none ch n c sg pl :
  st (snd (do_validate warn prof ch n c sg pl)) = Ok ->
  o_secret (snd (do_validate warn prof ch n c sg pl)) = None /\
  o_hsig (snd (do_validate warn prof ch n c sg pl)) = None.
Proof. destruct (do_validate_cases warn prof ch n c sg pl); auto. Qed.

Lemma do_revoke_nohsig ch n py : o_hsig (snd (do_revoke warn prof ch n py)) = None.
Proof. destruct (do_revoke_cases warn prof ch n py); reflexivity. Qed.

Theorem hs_step b sg o :
  wf_op o -> b + 2 <= U64MAX -> HSInv b sg -> HSInv (b + 2) (fst (gstep warn prof sg o)).
Proof.
  intros Hwf Hb. apply (gstep_twice warn prof U64MAX HSInv HSInv_mono); [|exact Hwf|lia].
  intros; apply hs_single; assumption.
Qed.

Lemma release_sec e n : n <= U64MAX -> from_obtainable e (o_secret (release warn prof e n)).
Proof. intros Hn. exact (rel_cases_sec e n _ Hn (release_cases warn prof e n)). Qed.

Lemma do_validate_frame ch n c sg pl :
  next_h (mem (fst (do_validate warn prof ch n c sg pl))) = next_h (mem ch) /\
  closed (mem (fst (do_validate warn prof ch n c sg pl))) = closed (mem ch).
Proof. destruct (do_validate_cases warn prof ch n c sg pl); split; reflexivity. Qed.

Lemma do_validate_nosecret ch n c sg pl :
  o_secret (snd (do_validate warn prof ch n c sg pl)) = None.
Proof. destruct (do_validate_cases warn prof ch n c sg pl); reflexivity. Qed.

Lemma step0_secret_closed ch o :
  wf_op o -> closed (mem ch) = true ->
  from_obtainable (mem ch) (o_secret (snd (step0 warn prof (Ready ch) o))).
Proof. intros Hwf Hc. rewrite step0_ready. exact (handler_secret ch o Hwf Hc). Qed.

End Holder.

(** The same, outside the section: these need no hypothesis on the filter. *)

Lemma add_p_val prof a b v :
  add_p prof a b = Val v -> a <= U64MAX -> b <= 2 ->
  v = a + b \/ (prof = Release /\ two64 <= a + b /\ v = a + b - two64).
Proof.
  intros H Ha Hb. destruct (N.le_gt_cases (a + b) U64MAX) as [Hle|Hgt].
  - left. rewrite (add_p_ok prof a b Hle) in H. injection H as <-. reflexivity.
  - right. unfold add_p, add_wrap in H.
    destruct prof; [destruct (a + b <=? U64MAX) eqn:E; [lia|discriminate]|]. injection H as <-.
    split; [reflexivity|]. split; [rewrite U64MAX_two64; lia|].
    symmetry. apply (N.mod_unique _ _ 1); unfold two64, U64MAX in *; lia.
Qed.

Lemma add_p_debug a b v : add_p Debug a b = Val v -> v = a + b.
Proof. unfold add_p. destruct (a + b <=? U64MAX); intros H; inversion H; reflexivity. Qed.

Lemma secret_number_sub prof n idx :
  sub_p prof INITIAL_COMMITMENT_NUMBER n = Val idx -> n <= U64MAX -> secret_number idx <= n.
Proof. intros H _. exact (secret_number_of_sub prof n idx H). Qed.

Lemma gstep_unfold warn prof s g o :
  gstep warn prof (s, g) o =
  (let '(s', r) := step warn prof s o in
   ((s', mkG (opt_cons (validates warn prof s o) (validated g))
             (opt_cons (o_secret r) (disclosed g))
             (opt_cons (o_hsig r) (hsigned g))
             (opt_cons (o_cpsig r) (cpsigned g))
             (match o, st r with
              | ValidateRevocation rn p _ _, Ok => (rn, p) :: cprevoked g
              | _, _ => cprevoked g
              end)), r)).
Proof. reflexivity. Qed.

(** the requests that can put (n, c) into the validated ledger: validations that carried
    counterparty signatures which verified ([SGood]) on acceptable content *)
Definition validation_of (o : op) (n : N) (c : content) : Prop :=
  o = ValidateHolder n c SGood true \/ (exists py, o = HValidateOld n c SGood true py) \/
  o = HValidateNew n c SGood true.

Lemma do_validate_ok_needs_sigs warn prof ch n c sg pl :
  st (snd (do_validate warn prof ch n c sg pl)) = Ok -> sg = SGood /\ pl = true.
Proof. destruct (do_validate_cases warn prof ch n c sg pl); (discriminate || auto). Qed.

Lemma validates_origin warn prof s o n c :
  validates warn prof s o = Some (n, c) -> validation_of o n c.
Proof.
  unfold validates, validation_of. destruct s as [|ch]; [discriminate|].
  destruct o; try discriminate;
    destruct (st (snd (do_validate warn prof ch n0 c0 sig_ok pol_ok))) eqn:E; try discriminate;
    intros [= <- <-]; destruct (do_validate_ok_needs_sigs _ _ _ _ _ _ _ E) as [-> ->]; eauto.
Qed.

Lemma validated_origin warn prof ops : forall sg n c,
  In (n, c) (validated (snd (grun warn prof sg ops))) ->
  In (n, c) (validated (snd sg)) \/ exists o, In o ops /\ validation_of o n c.
Proof.
  induction ops as [|o ops IH]; intros sg n c H; cbn [grun] in H.
  - left. exact H.
  - destruct (IH _ n c H) as [H1|[o' [Hin Hv]]].
    + destruct sg as [s g]. rewrite gstep_eq in H1. cbn [fst snd validated] in H1.
      destruct (validates warn prof s o) as [[n0 c0]|] eqn:Ev; cbn [opt_cons] in H1; [|left; exact H1].
      destruct H1 as [[= <- <-]|H1]; [|left; exact H1].
      right. exists o. split; [left; reflexivity | eapply validates_origin; exact Ev].
    + right. exists o'. split; [right; exact Hin | exact Hv].
Qed.
