(** C20 — concurrent requests neither deadlock nor break per-channel atomicity (PARTIAL).

    What is proved: for the lock programs of the request kinds in [Gen/LockProgs.v] - recorded
    from the running code and regenerated on every run - a rank on the lock classes exists
    (found by the tool, checked here by computation) that every program respects; therefore,
    for ANY number of threads, each running ANY sequence of these requests on any channel
    instances, and for EVERY schedule: no reachable configuration is stuck, every run ends, and
    it ends with every request completed ([C20_deadlock_free_partial], [C20_completes_partial]);
    and the accesses to any mutex-protected value - in particular a channel's enforcement
    state - form whole critical sections, one thread at a time, in each thread's program order
    ([C20_slot_atomic_partial]); a commitment update takes its channel's lock exactly once, so
    its block is the whole request ([C20_updates_single_section]) and the per-channel theorems
    C01-C03 apply to the sequence of blocks.

    What is missing (hence "_partial"): equality of replies and of cross-channel node state
    with a sequential order (linearizability) is not proved, only that node state is accessed
    under its lock; lock paths that the recording corpus does not take are not in the programs;
    atomics and memory-model effects are outside the model. *)
From VLS Require Import Model.Locks Model.LocksOld Model.Atomics Proofs.LocksProofs Proofs.AtomicsProofs Gen.LockProgs.

(** The obligation that depends on the code: the searched rank orders every recorded program
    (each acquires only above what it holds, releases only what it holds, ends empty-handed).
    A lock-order cycle in the code makes this false for every rank. *)
Theorem C20_ranked : all_ranked rank progs = true.
Proof. vm_compute. reflexivity. Qed.
Print Assumptions C20_ranked.

(** every access to a protected value is under its lock, in every recorded program *)
Theorem C20_guarded : all_guarded progs = true.
Proof. vm_compute. reflexivity. Qed.
Print Assumptions C20_guarded.

(** Deadlock freedom: any number of threads; thread [n] runs the requests [nth n reqs] one
    after the other; a request is any recorded program on any instances ([instance_of]: a
    monotone renaming of the instance numbers).  From every reachable configuration somebody
    can move unless everybody has finished, and no run is longer than the programs. *)
Theorem C20_deadlock_free_partial :
  forall reqs : list (list program),
    Forall (Forall (instance_of progs)) reqs ->
    forall (tr : list event) (c : config),
      steps (init (map (@concat instr) reqs)) tr c ->
      (finished c \/ exists e c', step c e c') /\
      (length tr <= length (concat (map (@concat instr) reqs)))%nat.
Proof. exact (deadlock_free rank progs C20_ranked). Qed.
Print Assumptions C20_deadlock_free_partial.

(** no schedule is a dead end: whatever has happened so far, the run can be completed *)
Theorem C20_completes_partial :
  forall reqs : list (list program),
    Forall (Forall (instance_of progs)) reqs ->
    forall (tr : list event) (c : config),
      steps (init (map (@concat instr) reqs)) tr c ->
      exists tr' c', steps c tr' c' /\ finished c'.
Proof. exact (completes rank progs C20_ranked). Qed.
Print Assumptions C20_completes_partial.

(** Atomicity: in every complete run, what happens to the value protected by [g] (any lock,
    e.g. the slot of channel i) is a sequence of blocks; each block is one whole critical
    section [Acq g; Touch g ...; Rel g] of one thread; thread [n]'s blocks, in run order, are
    exactly the sections of its own requests in program order. *)
Theorem C20_slot_atomic_partial :
  forall (g : lock) (reqs : list (list program)),
    Forall (Forall (instance_of progs)) reqs ->
    forall (tr : list event) (c : config),
      steps (init (map (@concat instr) reqs)) tr c -> finished c ->
      exists bs : list block,
        proj g tr = flatten bs /\
        Forall (fun b => is_section g (snd b)) bs /\
        forall n rs, nth_error reqs n = Some rs ->
          filter (concerns g) (concat rs) =
          concat (map snd (filter (fun b => Nat.eqb (fst b) n) bs)).
Proof. intros g. exact (slot_atomic_threads rank progs g C20_ranked C20_guarded). Qed.
Print Assumptions C20_slot_atomic_partial.

(** the same at any moment at which [g] is free (not only at the end), for any programs that
    access protected values under their locks - no rank needed *)
Theorem C20_sections_at_quiescence :
  forall (g : lock) (ps : list program),
    Forall (fun p => guarded [] p = true) ps ->
    forall (tr : list event) (c : config),
      steps (init ps) tr c -> ~ In g (owned c) ->
      exists bs : list block, proj g tr = flatten bs /\ Forall (fun b => is_section g (snd b)) bs.
Proof. exact slot_atomic. Qed.
Print Assumptions C20_sections_at_quiescence.

(** every commitment-update request - the Channel entry points AND the protocol messages that
    reach them through ChannelHandler::do_handle at protocol 4 and 6 (ValidateCommitmentTx2,
    RevokeCommitmentTx, SignRemoteCommitmentTx2) - is ONE critical section of its channel slot:
    its block in [C20_slot_atomic_partial] is everything the request does to that channel.  A
    handler arm that validates under one hold of the channel lock and revokes / answers under
    a second one (seeded change C20f) makes this obligation fail. *)
Theorem C20_updates_single_section : forallb (single_section slot_class) update_progs = true.
Proof. vm_compute. reflexivity. Qed.
Print Assumptions C20_updates_single_section.

(** Stored state.  Every access to the store happens inside a critical section of a structural lock
    (node state, channel map, a channel slot, the tracker), so by [C20_slot_atomic_partial] the writes
    of two requests to one record are ordered like the sections that computed them; in particular an
    allowlist request writes the allowlist while it still holds the node state it has just changed.
    A request that releases the lock first and writes afterwards (seeded change C20h) makes these
    obligations fail: the store could then receive the snapshots in the other order. *)
Theorem C20_store_access_under_a_lock :
  forallb (nested_under structural_classes store_class []) progs = true.
Proof. vm_compute. reflexivity. Qed.
Print Assumptions C20_store_access_under_a_lock.

Theorem C20_allowlist_written_under_node_state :
  forallb (nested_under [state_class] store_class []) allowlist_progs = true /\ allowlist_progs <> [].
Proof. split; [vm_compute; reflexivity|vm_compute; discriminate]. Qed.
Print Assumptions C20_allowlist_written_under_node_state.

(** setup_channel publishes the ready channel in the channel map and writes the tracker and the channel
    record while it still holds the map: no request on that channel can run (and store a newer record)
    between the publication and setup_channel's own write of the initial state.  Releasing the map
    before the store is written (seeded change C20k) makes this fail. *)
Theorem C20_setup_channel_writes_under_the_map :
  forallb (nested_under [map_class] store_class []) setup_progs = true /\ setup_progs <> [].
Proof. split; [vm_compute; reflexivity|vm_compute; discriminate]. Qed.
Print Assumptions C20_setup_channel_writes_under_the_map.

Example C20_nested_under_rejects_late_write :
  nested_under [1] 8 [] [Acq (1, 0); Touch (1, 0); Rel (1, 0); Acq (8, 0); Rel (8, 0)] = false /\
  nested_under [1] 8 [] [Acq (1, 0); Acq (8, 0); Rel (8, 0); Rel (1, 0)] = true.
Proof. vm_compute. split; reflexivity. Qed.

(** Lock-free shared state.  The key manager's counters (generated channel ids, entropy, base-point
    indices) are used before or without any mutex, so the lock programs say nothing about them.
    [counter_progs] (generated from the source on every run) lists, per function, the atomic
    operations on each Atomic* field; the obligation: every write is ONE read-modify-write event
    (no separate store).  A load followed by a store makes it fail. *)
Theorem C20_counters_rmw : forallb (fun p => no_store (snd p)) counter_progs = true.
Proof. vm_compute. reflexivity. Qed.
Print Assumptions C20_counters_rmw.

(** ... and then, for any number of threads, each performing any sequence of the recorded counter
    uses, under EVERY interleaving of their atomic events, the values handed out (child indices,
    hence generated channel ids / entropy) are pairwise distinct.  Partial: one counter at a time,
    sequentially consistent interleaving of the atomic events (the code uses AcqRel). *)
Theorem C20_generated_ids_distinct_partial :
  forall (c0 : N) (uses : list (list aop)),
    Forall (fun u => exists ps, Forall (fun p => In p (map snd counter_progs)) ps /\ u = concat ps) uses ->
    forall sched s', arun (ainit c0 uses) sched = Some s' -> NoDup (handed s').
Proof.
  intros c0 uses Hu sched s' H.
  apply (rmw_values_distinct c0 uses) with (sched := sched); [|exact H].
  pose proof C20_counters_rmw as R. rewrite forallb_forall in R.
  revert Hu. apply Forall_impl. intros u [ps [Hps ->]]. apply no_store_concat.
  revert Hps. apply Forall_impl. intros p Hp.
  apply in_map_iff in Hp. destruct Hp as [[nm q] [<- Hq]]. exact (R _ Hq).
Qed.
Print Assumptions C20_generated_ids_distinct_partial.

(** the load-then-store variant (seeded change C20g) hands the same value to two threads *)
Example C20_load_store_refuted :
  exists sched s', arun (ainit 0 [[Ld; St]; [Ld; St]]) sched = Some s' /\ ~ NoDup (handed s').
Proof.
  exists [0; 1; 0; 1]%nat. eexists. split; [vm_compute; reflexivity|].
  cbn [handed]. intros H. inversion H as [|x l N _]. apply N. left. reflexivity.
Qed.

Example C20_counters_nonvacuous :
  counter_progs <> [] /\
  exists s', arun (ainit 5 [[Rmw]; [Rmw]; [Rmw]]) [2; 0; 1]%nat = Some s' /\ handed s' = [7; 6; 5] /\ cnt s' = 8.
Proof. split; [vm_compute; discriminate|]. eexists. vm_compute. repeat split. Qed.

(** the request kinds taken out of [progs] because they contain an inversion listed in
    KNOWN_FINDINGS.json really do deadlock in the model (empty when nothing is listed): each
    witness is a set of recorded programs and a schedule that ends in a stuck configuration *)
Theorem C20_listed_inversions_deadlock :
  forall w, In w known_witnesses ->
    exists tr c, steps (init (fst w)) tr c /\ deadlocked c.
Proof. apply witnesses_deadlock. vm_compute. reflexivity. Qed.
Print Assumptions C20_listed_inversions_deadlock.

(** Non-vacuity: the recorded list is not empty, contains nested acquisitions, and any two of
    the recorded requests run concurrently to completion. *)
Example C20_nonvacuous :
  (2 <= length progs)%nat /\
  existsb (fun p => Nat.leb 2 (max_nesting [] p)) progs = true /\
  forall p q, In p progs -> In q progs ->
    exists tr c, steps (init [p; q]) tr c /\ finished c /\ length tr = (length p + length q)%nat.
Proof.
  split; [vm_compute; lia|]. split; [vm_compute; reflexivity|].
  intros p q Hp Hq.
  assert (R : Forall (Forall (instance_of progs)) [[p]; [q]]).
  { repeat constructor; apply instance_self; assumption. }
  destruct (C20_completes_partial [[p]; [q]] R [] _ (steps_nil _)) as [tr [c [Hs Hf]]].
  cbn [map concat] in Hs. rewrite !app_nil_r in Hs.
  exists tr, c. split; [exact Hs|]. split; [exact Hf|].
  pose proof (steps_total _ _ _ Hs) as T. cbn [init map total fold_right rest] in T.
  rewrite (finished_total c Hf) in T. lia.
Qed.

(** The statement was false for the code before the repairs: [Node::forget_channel] took node
    state, then the channel map, then the slot, while a channel request (here the balance
    query) holds the slot and takes node state.  Programs as recorded at /repo bf60549
    (accesses and the persister omitted).  The same schedule blocks two real threads for ever
    (harness: locks race forget_channel_ready:1 channel_balance_query). *)
Definition S0 : lock := (1, 0).
Definition M0 : lock := (2, 0).
Definition C1 : lock := (3, 1).
Definition old_forget_channel : program :=
  [Acq S0; Acq M0; Touch M0; Acq C1; Touch C1; Rel C1; Rel M0; Rel S0].
Definition balance_query : program :=
  [Acq M0; Touch M0; Rel M0; Acq C1; Touch C1; Acq S0; Touch S0; Rel S0; Rel C1].

Example C20_old_forget_channel_refuted :
  exists tr c, steps (init [old_forget_channel; balance_query]) tr c /\ deadlocked c.
Proof.
  apply (witness_deadlocks ([old_forget_channel; balance_query], [0; 1; 1; 1; 1; 1; 0; 0]%nat)).
  vm_compute. reflexivity.
Qed.

(** and no rank can order these two programs *)
Example C20_old_forget_channel_unrankable :
  forall rank, all_ranked rank [old_forget_channel; balance_query] = false.
Proof.
  apply (inversion_unrankable S0 C1 old_forget_channel balance_query);
    [reflexivity | reflexivity | cbn [In]; tauto | cbn [In]; tauto].
Qed.

(** Regression material (Model/LocksOld.v, frozen): the programs recorded on the code before the
    six lock-order repairs.  Each of the five schedules that blocked real threads for ever ends
    in a stuck configuration of the model too ... *)
Theorem C20_old_races_deadlock :
  forall w, In w old_races -> exists tr c, steps (init (fst w)) tr c /\ deadlocked c.
Proof. apply witnesses_deadlock. vm_compute. reflexivity. Qed.
Print Assumptions C20_old_races_deadlock.

(** ... and each of the five inversions (S/M and S/C: forget_channel; S/T: persist_all; M/T:
    new_channel; C/Mon: compact block decoding) by itself admits no rank at all, so the
    obligation [C20_ranked] could not be met by the old code, whatever the tool searched. *)
Theorem C20_old_inversions_unrankable :
  forall a b p q, In (a, b, p, q) old_inversions -> forall rank, all_ranked rank [p; q] = false.
Proof.
  assert (H : forallb (fun x => match x with (a, b, p, q) => has_edge a b p && has_edge b a q end)
                      old_inversions = true) by (vm_compute; reflexivity).
  rewrite forallb_forall in H. intros a b p q I rank. specialize (H _ I). cbn beta iota in H.
  apply andb_true_iff in H. destruct H as [H1 H2].
  apply (inversion_unrankable a b p q [p; q] H1 H2); cbn [In]; tauto.
Qed.
Print Assumptions C20_old_inversions_unrankable.

Theorem C20_old_programs_unrankable : forall rank, all_ranked rank old_progs = false.
Proof.
  apply (inversion_unrankable (1, 0) (2, 0) old_forget_channel_stub old_node_balance_query).
  - vm_compute. reflexivity.
  - vm_compute. reflexivity.
  - unfold old_progs. cbn [In]. tauto.
  - unfold old_progs. cbn [In]. tauto.
Qed.
Print Assumptions C20_old_programs_unrankable.

(** the checker itself refuses an inverted pair (negative control for [all_ranked]) *)
Example C20_checker_rejects_inversion :
  all_ranked (fun c => c) [[Acq (1,0); Acq (2,0); Rel (2,0); Rel (1,0)];
                           [Acq (2,0); Acq (1,0); Rel (1,0); Rel (2,0)]] = false /\
  all_ranked (fun c => c) [[Acq (1,0); Acq (1,0); Rel (1,0)]] = false /\
  all_ranked (fun c => c) [[Acq (1,0)]] = false /\
  all_guarded [[Acq (1,0); Rel (1,0); Touch (1,0)]] = false.
Proof. vm_compute. repeat split. Qed.
