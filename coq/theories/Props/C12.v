(** C12 — velocity limits bound spending in every time window, across restarts. *)
From VLS Require Import Base.U64 Model.Velocity Proofs.VelocityProofs.
From VLS Require Import Base.Rust Gen.VelocityGen Proofs.VelocityGenProofs.

(** For every policy spec with a finite limit, every history of approvals (non-decreasing
    arrival times, any amounts), node-entry writes and restarts, and every time window no
    longer than the tracked interval minus one bucket, the approved amounts inside the
    window sum to at most the limit. *)
Theorem C12_window :
  forall (it : itype) (lim0 : N) (ops : list vop),
    let '(lim, ivl, nb) := spec_triple it lim0 in
    lim < U64MAX ->
    nondecreasing 0 (op_times ops) = true ->
    forall t0 len : N,
      len <= (N.of_nat nb - 1) * ivl ->
      wsum (in_window t0 len) (snd (vrun it lim0 ops)) <= lim.
Proof.
  intros it lim0 ops.
  pose proof (window_bound it lim0) as H. unfold lim_of, ivl_of, nb_of in H.
  destruct (spec_triple it lim0) as [[l i] n]. cbn [fst snd] in H.
  intros Hl Hnd t0 len Hlen. apply H; assumption.
Qed.
Print Assumptions C12_window.

(** A restart does not change the control that was persisted, in any reachable state. *)
Theorem C12_restart_keeps_counted :
  forall (it : itype) (lim0 : N) (ops : list vop),
    fst (fst (spec_triple it lim0)) < U64MAX ->
    nondecreasing 0 (op_times ops) = true ->
    let s := fst (vrun it lim0 ops) in
    restore it lim0 (disk s) = disk s.
Proof. exact restart_keeps_counted. Qed.
Print Assumptions C12_restart_keeps_counted.

(** The [insert] the theorems above speak about is the one in the source: Gen/VelocityGen.v is the
    statement-by-statement translation of [VelocityControl::insert] and [::velocity]
    (vls-core/src/util/velocity.rs, regenerated on every run by tools/gen_rustfn.py; meaning of
    the Rust constructs in Base/Rust.v), and on every control with a positive interval, at least
    one bucket and a start that is not in the future it returns, in both build profiles, exactly
    the model's control and verdict - no panic, no wrap. *)
Theorem C12_insert_is_source :
  forall (prof : profile) (c : vc) (now amt : N),
    start c <= now -> now <= U64MAX -> 0 < interval c -> buckets c <> [] ->
    vec_len (buckets c) <= U64MAX ->
    gen_insert prof (to_rvc c) now amt =
    Val (to_rvc (fst (insert c now amt)), snd (insert c now amt)).
Proof. exact gen_insert_is_model. Qed.
Print Assumptions C12_insert_is_source.

(** ... and those side conditions hold at every approval request of every history of the node
    (approvals with non-decreasing u64 times, node-entry writes, restarts) from any policy spec. *)
Theorem C12_source_agrees_along_history :
  forall (prof : profile) (it : itype) (lim0 : N) (ops : list vop),
    nondecreasing 0 (op_times ops) = true ->
    Forall (fun x => x <= U64MAX) (op_times ops) ->
    forall ops1 now amt ops2, ops = ops1 ++ Approve now amt :: ops2 ->
      let c := mem (fst (vrun it lim0 ops1)) in
      gen_insert prof (to_rvc c) now amt =
      Val (to_rvc (fst (insert c now amt)), snd (insert c now amt)).
Proof.
  intros prof it lim0 ops Hnd Hu.
  exact (source_agrees_along_history prof it lim0 ops (vinit it lim0) 0 [] (vinit_ok it lim0) Hnd Hu).
Qed.
Print Assumptions C12_source_agrees_along_history.

(** An unlimited control approves everything (amounts are u64). *)
Theorem C12_unlimited :
  forall (c : vc) (now amt : N), limit c = U64MAX -> snd (insert c now amt) = true.
Proof.
  intros c now amt Hl. unfold insert. change (limit (advance c now)) with (limit c). rewrite Hl.
  pose proof (sat_add_le (velocity (advance c now)) amt).
  destruct (N.ltb_spec U64MAX (sat_add (velocity (advance c now)) amt)); [lia | reflexivity].
Qed.
Print Assumptions C12_unlimited.

(** Non-vacuity: a concrete history with restarts in which the limit is reached exactly
    inside one window, and the hypotheses of [C12_window] hold. *)
Example C12_nonvacuous :
  let ops := [Approve 1000 400000; Restart; Approve 1200 600000; Approve 1201 1;
              Restart; Approve 4299 1; Approve 4600 400000] in
  nondecreasing 0 (op_times ops) = true /\
  snd (vrun Hourly 1000000 ops) = [(1000, 400000); (1200, 600000); (4600, 400000)] /\
  wsum (in_window 1000 3300) (snd (vrun Hourly 1000000 ops)) = 1000000.
Proof. vm_compute. repeat split. Qed.

(** The statement is false for the restore that the code had before the repair
    (fresh controls built from the policy on every restart): limit reached, restart,
    limit reached again inside one bucket. *)
Definition vstep_old (it : itype) (lim : N) (s : nodevc) (o : vop) : nodevc * option bool :=
  match o with
  | Restart => (mknode (of_spec it lim) (disk s), None)
  | _ => vstep it lim s o
  end.
Fixpoint vrun_old (it : itype) (lim : N) (s : nodevc) (log : list (N * N)) (ops : list vop) :=
  match ops with
  | [] => log
  | o :: r =>
      let '(s1, res) := vstep_old it lim s o in
      vrun_old it lim s1
        (match o, res with
         | Approve now amt, Some true => log ++ [(now, amt)]
         | _, _ => log
         end) r
  end.
Example C12_old_restore_refuted :
  exists ops t0 len,
    nondecreasing 0 (op_times ops) = true /\ len <= (12 - 1) * 300 /\
    1000000 < wsum (in_window t0 len) (vrun_old Hourly 1000000 (vinit Hourly 1000000) [] ops).
Proof.
  exists [Approve 1000 1000000; Restart; Approve 1001 1000000], 1000, 3300.
  vm_compute. repeat split; congruence.
Qed.

Check C12_window.
