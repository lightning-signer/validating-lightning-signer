(** C05 — accepted commitments satisfy every mandatory policy bound.

    The model describes the code with the repaired [estimate_feerate_per_kw]
    (notes/fixes/C05-feerate-no-truncation.patch); [C05_fee_truncation_refuted] keeps the
    witness against the estimator as found. *)
From VLS Require Import Base.U64 Model.CommitmentPolicy Proofs.CommitmentPolicyProofs.
From VLS Require Gen.TxUtilGen Proofs.TxUtilGenProofs.
From VLS Require Gen.CommitmentPolicyGen Proofs.CommitmentPolicyGenProofs.
From VLS Require Gen.EnforcementGen Gen.EnforcementRulesGen Proofs.CommitmentEntryGenProofs.

(** Under a non-permissive filter, whichever entry point accepts a commitment (simple or
    on-chain validator, counterparty or holder side), for every policy, setup, chain state,
    enforcement state, commitment number and content — amounts unbounded, so every u64
    overflow candidate is covered — the mathematical conjunction of bounds holds: implied fee
    within the BOLT-3 fees of the configured rates, no main output or HTLC below its limit,
    HTLC count, in-flight value, expiries, initial-commitment rules. *)
Theorem C05_accept_implies_bounds :
  forall (en : entry) (prof : profile) (warn : tag -> bool) (pol : policy) (e : estate)
         (s : setup) (cs : chain) (n : N) (i : cinfo),
    (forall t, warn t = false) ->
    max_feerate pol < U32MAX ->
    heights_fit prof pol cs ->
    validate_entry en est_new prof warn pol e s cs n i = Ok ->
    Bounds pol s cs n i.
Proof.
  intros en prof warn pol e s cs n i Hw Hm Hfit H.
  eapply accept_implies_bounds; try eassumption. eapply entry_accept; eassumption.
Qed.
Print Assumptions C05_accept_implies_bounds.

(** The same for a filter given as rules: no rule with action Warn. *)
Corollary C05_accept_implies_bounds_rules :
  forall en prof rules pol e s cs n i,
    Forall (fun r => r_warn r = false) rules ->
    max_feerate pol < U32MAX ->
    heights_fit prof pol cs ->
    validate_entry en est_new prof (warn_of rules) pol e s cs n i = Ok ->
    Bounds pol s cs n i.
Proof.
  intros en prof rules pol e s cs n i Hr. apply C05_accept_implies_bounds.
  intros t. apply filter_no_warn_rules. exact Hr.
Qed.

(** Per tag, for an arbitrary filter: a bound can only be missing when its own tag is
    downgraded; the outputs never exceed the funding whatever the filter says. *)
Theorem C05_accept_per_tag :
  forall en prof warn pol e s cs n i,
    validate_entry en est_new prof warn pol e s cs n i = Ok ->
    total_out i <= channel_value s /\
    (warn T_outputs_trimmed = false -> dust_bound s i) /\
    (warn T_htlc_count = false -> count_bound pol i) /\
    (warn T_inflight = false -> inflight_bound pol i) /\
    (warn T_cltv_range = false -> heights_fit prof pol cs -> expiry_bound pol cs i) /\
    (warn T_fee_range = false -> max_feerate pol < U32MAX -> fee_bound pol s i) /\
    (warn T_first_no_htlcs = false -> n = 0 -> offered i = [] /\ received i = []) /\
    (warn T_initial_funding_value = false -> n = 0 -> is_outbound s = true ->
     cp_value i <= push_value_msat s / 1000).
Proof.
  intros en prof warn pol e s cs n i H. eapply accept_facts. eapply entry_accept. eassumption.
Qed.
Print Assumptions C05_accept_per_tag.

(** The fee window in the form the code compares: [min*w <= 1000*fee + 999 < (max+1)*w]. *)
Theorem C05_fee_window_equiv :
  forall lo hi w fee,
    (bolt3_fee lo w <= fee /\ fee < bolt3_fee hi w) <->
    (lo * w <= fee * 1000 + 999 /\ fee * 1000 + 999 < hi * w).
Proof. exact bolt3_window_iff. Qed.

(** Initial commitment of a channel we funded: the holder keeps everything but the pushed
    value and an in-range fee. *)
Theorem C05_initial_holder_value :
  forall pol s cs i,
    Bounds pol s cs 0 i -> is_outbound s = true ->
    channel_value s <
      holder_value i + push_value_msat s / 1000
      + bolt3_fee (max_feerate pol + 1) (expected_weight (is_anchors (commitment_type s)) 0).
Proof.
  intros pol s cs i (Hf & _ & _ & _ & _ & Hini) Ho.
  destruct (Hini eq_refl) as (Eo & Er & Hp). specialize (Hp Ho).
  destruct Hf as (Hle & _ & Hhi).
  unfold weight_of, n_htlcs, total_out, msum in *. rewrite Eo, Er in *. cbn [length map sum_N] in *.
  change (N.of_nat (0 + 0)) with 0 in *.
  unfold cp_value, holder_value in *. destruct (cp_broadcaster i); lia.
Qed.

(** A channel becomes usable only with a safe commitment type and both contest delays within
    policy (and a shutdown script that is ours or allowlisted). *)
Theorem C05_setup :
  forall warn pol s,
    (forall t, warn t = false) -> validate_setup_channel warn pol s = Ok -> setup_bound pol s.
Proof.
  intros warn pol s Hw H. apply setup_facts in H. rewrite (Hw T_mutual_destination) in H.
  destruct H as (H1 & H2 & H3 & [H4|[H4|[_ H4]]]); [| |discriminate]; unfold setup_bound; auto.
Qed.
Print Assumptions C05_setup.

Theorem C05_setup_per_tag :
  forall warn pol s,
    validate_setup_channel warn pol s = Ok ->
    (warn T_safe_type = false -> safe_type (commitment_type s) = true) /\
    (warn T_delay_holder = false -> min_delay pol <= cp_delay s <= max_delay pol) /\
    (warn T_delay_counterparty = false -> min_delay pol <= holder_delay s <= max_delay pol) /\
    (warn T_mutual_destination = false -> shutdown s = 0 \/ shutdown s = 1).
Proof. intros warn pol s H. apply setup_facts in H. intuition congruence. Qed.

(** No counterparty commitment is signed for a channel above the maximum size: the signing
    path (size check, then the validator, simple or on-chain) answers Ok only for a channel
    within the size limit whose commitment passed every check. *)
Theorem C05_channel_value :
  forall prof warn pol onchain e s cs n i,
    sign_counterparty est_new prof warn pol onchain e s cs n i = Ok ->
    (warn T_funding_max = false -> channel_value s <= max_channel_size pol) /\
    validate_commitment est_new prof warn pol s cs n i = Ok.
Proof.
  intros prof warn pol onchain e s cs n i H. apply sign_counterparty_facts in H. tauto.
Qed.
Print Assumptions C05_channel_value.

(** With the on-chain validator nothing beyond the initial commitment is accepted while the
    funding is unconfirmed or after a close was seen: every counterparty commitment with a
    number above 0, and every holder commitment above 0 that is new. *)
Theorem C05_onchain :
  forall prof warn pol e s cs n i,
    warn T_active_utxo_temp = false -> warn T_active_utxo = false -> 0 < n ->
    (onchain_counterparty_commitment est_new prof warn pol e s cs n i = Ok ->
     1 <= funding_depth cs /\ closing_depth cs = 0) /\
    (onchain_holder_commitment est_new prof warn pol e s cs n i = Ok ->
     next_holder_commit_num e <= n ->
     1 <= funding_depth cs /\ closing_depth cs = 0).
Proof.
  intros prof warn pol e s cs n i Hw1 Hw2 Hn. split.
  - intros H. destruct (onchain_counterparty_buried _ _ _ _ _ _ _ _ _ H Hn) as [A B]. auto.
  - intros H Hnew. destruct (onchain_holder_buried _ _ _ _ _ _ _ _ _ H Hn Hnew) as [A B]. auto.
Qed.
Print Assumptions C05_onchain.

(** A channel becomes usable only through an accepted setup: whatever requests were made on
    the channel id before (refused setups, retries, other commitments), a counterparty
    signature or an accepted holder commitment belongs to a ready channel whose setup passed
    validate_setup_channel — under a non-permissive filter: safe type, both delays within
    policy, shutdown script ours or allowlisted — and the commitment satisfies the bounds
    computed with that setup. *)
Theorem C05_usable_only_after_setup :
  forall prof warn pol oc pre e cs n i,
    (forall t, warn t = false) ->
    max_feerate pol < U32MAX -> heights_fit prof pol cs ->
    let st := lrun est_new prof warn pol oc Stub pre in
    (snd (lstep est_new prof warn pol oc st (LSignCp e cs n i)) = 0 \/
     snd (lstep est_new prof warn pol oc st (LValidateHolder e cs n i)) = 0) ->
    exists s, st = Ready s /\ setup_bound pol s /\ Bounds pol s cs n i.
Proof.
  intros prof warn pol oc pre e cs n i Hw Hm Hfit st [H | H];
    apply accepted_commitment_on_validated_setup in H; destruct H as (s & Hs & Hv & Hc);
    exists s; (split; [exact Hs|]); (split; [eapply C05_setup; eassumption|]);
    eapply accept_implies_bounds; eassumption.
Qed.
Print Assumptions C05_usable_only_after_setup.

(** a refused setup leaves the stub: the commitment is refused, a good setup still works *)
Example C05_refused_setup_leaves_stub :
  let pol := mkPol 144 2016 1000000001 1000 16777216 false 253 25000 in
  let bad := mkSetup true 1000000000 0 6 144 StaticRemoteKey 0 in
  let good := mkSetup true 1000000000 0 144 144 StaticRemoteKey 0 in
  let i := mkInfo true 999999000 0 [] [] 253 in
  let sign := LSignCp (mkEstate 0 0 0 false None false None) (mkChain 0 0 0) 0 i in
  ltrace est_new Debug strict pol false Stub [LSetup bad; sign; LSetup bad; LSetup good; sign; LSetup bad]
  = [2; 2; 2; 0; 0; 2].
Proof. vm_compute. reflexivity. Qed.

(** The commitment a phase-2 signature is for satisfies the bounds: the signed content is the
    request itself — all of its HTLC entries, repeated ones included ([j = req], the lists are
    arbitrary lists, nothing requires their entries to differ) — and that is what was validated. *)
Theorem C05_signed_commitment_bounds :
  forall prof warn pol oc e s cs n req j,
    (forall t, warn t = false) ->
    max_feerate pol < U32MAX -> heights_fit prof pol cs ->
    signed_counterparty est_new prof warn pol oc e s cs n req = Some j \/
    signed_holder_redundant est_new prof warn pol oc e s cs n req = Some j ->
    j = req /\ Bounds pol s cs n j.
Proof.
  intros prof warn pol oc e s cs n req j Hw Hm Hfit [H | H].
  - unfold signed_counterparty in H.
    destruct (sign_counterparty est_new prof warn pol oc e s cs n req) eqn:E; try discriminate.
    inversion H; subst j. split; [reflexivity|].
    apply sign_counterparty_facts in E. destruct E as (_ & E & _).
    eapply accept_implies_bounds; eassumption.
  - unfold signed_holder_redundant in H.
    destruct (validate_entry _ est_new prof warn pol e s cs n req) eqn:E; try discriminate.
    inversion H; subst j. split; [reflexivity|].
    eapply C05_accept_implies_bounds; eassumption.
Qed.
Print Assumptions C05_signed_commitment_bounds.

(** two identical HTLCs are two entries: accepted when the full lists are within bounds ... *)
Example C05_identical_htlcs_nonvacuous :
  let pol := mkPol 4 2016 1000000001 2 20000 false 253 333333 in
  let s := mkSetup true 3000000 0 6 7 StaticRemoteKey 0 in
  let e := mkEstate 0 23 22 false (Some true) false None in
  let req := mkInfo true 1000000 1979000 [(10000, 131072); (10000, 131072)] [] 0 in
  signed_counterparty est_new Debug strict pol false e s (mkChain 0 0 0) 23 req = Some req.
Proof. vm_compute. reflexivity. Qed.

(** ... and the statement is false of the variant that validates the lists without the repeated
    entries: with a limit of 10 000 sat in flight, two identical 6 000 sat HTLCs are signed; with
    a real fee of 10 sat (rate 10 < 253) the commitment is signed because the validator is
    shown a fee of 10 010 sat *)
Example C05_dedup_validation_refuted :
  let s := mkSetup true 3000000 0 6 7 StaticRemoteKey 0 in
  let e := mkEstate 0 23 22 false (Some true) false None in
  let cs := mkChain 0 0 0 in
  (let pol := mkPol 4 2016 1000000001 1000 10000 false 253 333333 in
   let req := mkInfo true 1000000 1987000 [(6000, 131072); (6000, 131072)] [] 0 in
   signed_counterparty_dedup est_new Debug strict pol false e s cs 23 req = Some req /\
   ~ inflight_bound pol req /\
   signed_counterparty est_new Debug strict pol false e s cs 23 req = None) /\
  (let pol := mkPol 4 2016 1000000001 1000 16777216 false 253 333333 in
   let req := mkInfo true 1000000 1979990 [(10000, 131072); (10000, 131072)] [] 0 in
   signed_counterparty_dedup est_new Debug strict pol false e s cs 23 req = Some req /\
   ~ fee_bound pol s req /\
   signed_counterparty est_new Debug strict pol false e s cs 23 req = None).
Proof.
  split; (split; [vm_compute; reflexivity|]); (split; [|vm_compute; reflexivity]).
  - unfold inflight_bound. vm_compute. intros H. apply H. reflexivity.
  - intros (_ & H & _). vm_compute in H. apply H. reflexivity.
Qed.

(** Filter semantics: the default filter downgrades nothing; a tag is downgraded only by an
    explicit matching rule with action Warn that no earlier rule pre-empts; rules without
    Warn give the non-permissive filter; an earlier matching Error rule protects a tag. *)
Theorem C05_filter_default : forall t, warn_of [] t = false.
Proof. intros t. apply filter_default. Qed.

Theorem C05_filter_only_explicit :
  forall rules t,
    warn_of rules t = true ->
    exists pre r post, rules = pre ++ r :: post /\ rule_matches r (tag_name t) = true /\
                       r_warn r = true /\
                       Forall (fun q => rule_matches q (tag_name t) = false) pre.
Proof. intros rules t. apply filter_warn_explicit. Qed.

Theorem C05_filter_no_warn_rules :
  forall rules t, Forall (fun r => r_warn r = false) rules -> warn_of rules t = false.
Proof. intros rules t. apply filter_no_warn_rules. Qed.

Theorem C05_filter_error_first :
  forall pre r post t,
    Forall (fun q => rule_matches q (tag_name t) = false) pre ->
    rule_matches r (tag_name t) = true -> r_warn r = false ->
    warn_of (pre ++ r :: post) t = false.
Proof. intros pre r post t Hp Hm <-. apply filter_first_match; assumption. Qed.

(** the repaired estimator, for the other users of the function (mutual close, on-chain fees) *)
Theorem C05_estimate_sound :
  forall fee w lo hi, w <> 0 -> hi < U32MAX ->
    lo <= estimate_feerate_per_kw fee w <= hi ->
    lo * w <= fee * 1000 + 999 /\ fee * 1000 + 999 < (hi + 1) * w.
Proof. exact estimate_window. Qed.

Theorem C05_estimate_old_agrees_in_range :
  forall p fee w, w <> 0 -> fee * 1000 + 999 < two32 * w -> fee * 1000 + 999 <= U64MAX ->
    estimate_feerate_per_kw_old p fee w = Val (estimate_feerate_per_kw fee w).
Proof.
  intros p fee w Hw H H64. rewrite estimate_exact by assumption.
  assert (Hq : (fee * 1000 + 999) / w < two32).
  { apply N.div_lt_upper_bound; [assumption | lia]. }
  unfold estimate_feerate_per_kw_old, as_u32.
  rewrite RustFacts.mul_p_ok, RustFacts.add_p_ok, N.mod_small by (assumption || lia). reflexivity.
Qed.

Definition pol_ex : policy := mkPol 144 2016 1000000001 1000 16777216 true 253 25000.
Definition est_fresh : estate := mkEstate 0 0 0 false None false None.
Definition est_running : estate := mkEstate 7 7 6 false (Some true) true (Some true).

(** a running anchors channel, on-chain validator, chain state in use: one offered and two
    received HTLCs at the edges of the expiry window and of the dust limit, fee exactly the
    BOLT-3 fee at the minimum rate *)
Example C05_nonvacuous :
  let s := mkSetup true 3000000 0 144 2016 AnchorsZeroFeeHtlc 0 in
  let cs := mkChain 800000 6 0 in
  let i := mkInfo true 1000000 1897615 [(354, 800144)] [(100000, 802016); (1617, 801000)] 253 in
  validate_entry OnchainCp est_new Debug strict pol_ex est_running s cs 7 i = Ok /\
  validate_entry OnchainHolder est_new Debug strict pol_ex est_running s cs 7
                 (mkInfo false 1897615 1000000 [(354, 800144)] [(100000, 802016); (1617, 801000)] 253)
    = Ok /\
  max_feerate pol_ex < U32MAX /\ heights_fit Debug pol_ex cs /\
  channel_value s - total_out i = bolt3_fee 253 (weight_of s i).
Proof. vm_compute. repeat split; auto; try congruence. Qed.

(** an initial commitment of an outbound channel with a pushed value *)
Example C05_nonvacuous_initial :
  let s := mkSetup true 1000000000 5000999 6 7 StaticRemoteKey 1 in
  let i := mkInfo true 999976901 5000 [] [] 25000 in
  sign_counterparty est_new Release strict pol_ex false est_fresh s (mkChain 0 0 0) 0 i = Ok /\
  validate_setup_channel strict (mkPol 6 7 1000000001 1000 16777216 false 253 25000) s = Ok /\
  channel_value s - total_out i = bolt3_fee 25001 724 - 1.
Proof. vm_compute. repeat split. Qed.

(** [(((total_fee * 1000) + 999) / weight) as u32] truncates: with a size limit of 10^10 sat an
    initial counterparty commitment that leaves 3 109 556 540 sat to fees (rate 4 294 967 598
    per kw, read as 302) is accepted, in debug and in release builds alike. *)
Example C05_fee_truncation_refuted :
  exists pol s cs i,
    max_feerate pol < U32MAX /\ channel_value s <= max_channel_size pol /\
    (forall prof,
       sign_counterparty (est_old prof) prof strict pol false est_fresh s cs 0 i = Ok) /\
    ~ fee_bound pol s i /\
    validate_commitment est_new Debug strict pol s cs 0 i = Err T_fee_range.
Proof.
  exists (mkPol 4 2016 10000000000 1000 16777216 false 253 333333),
         (mkSetup true 10000000000 0 6 7 StaticRemoteKey 0),
         (mkChain 0 0 0),
         (mkInfo true 6890443460 0 [] [] 302).
  split; [vm_compute; reflexivity|]. split; [vm_compute; congruence|].
  split; [intros []; vm_compute; reflexivity|]. split; [|vm_compute; reflexivity].
  intros (_ & _ & H). vm_compute in H. discriminate.
Qed.

(** [max_feerate = u32::MAX] means "no maximum": the saturated estimate is accepted *)
Example C05_max_feerate_u32max_is_unlimited :
  let pol := mkPol 4 2016 10000000000 1000 16777216 false 253 U32MAX in
  let s := mkSetup true 10000000000 0 6 7 StaticRemoteKey 0 in
  let i := mkInfo true 6890443460 0 [] [] 302 in
  validate_commitment est_new Debug strict pol s (mkChain 0 0 0) 0 i = Ok /\ ~ fee_bound pol s i.
Proof.
  split; [vm_compute; reflexivity|]. intros (_ & _ & H). vm_compute in H. discriminate.
Qed.

(** release builds wrap [current_height + delay] in u32: at a height above 2^32 - 2^16 (never
    reached by a chain) the window check is meaningless; debug builds panic there *)
Definition wrap_pol : policy := mkPol 144 2016 1000000001 1000 16777216 true 253 25000.
Definition wrap_setup : setup := mkSetup false 3000000 0 144 144 StaticRemoteKey 0.
Definition wrap_cs : chain := mkChain 4294967295 6 0.
Definition wrap_info : cinfo := mkInfo true 1000000 1899773 [] [(100000, 1000)] 253.
Example C05_release_height_wrap :
  validate_commitment est_new Release strict wrap_pol wrap_setup wrap_cs 7 wrap_info = Ok /\
  validate_commitment est_new Debug strict wrap_pol wrap_setup wrap_cs 7 wrap_info = Panic /\
  ~ expiry_bound wrap_pol wrap_cs wrap_info.
Proof.
  split; [vm_compute; reflexivity|]. split; [vm_compute; reflexivity|].
  unfold expiry_bound, wrap_info. cbn [offered received app].
  intros H. inversion H as [|x l Hx Hl]. unfold expiry_ok in Hx.
  destruct Hx as [_ Hx]. specialize (Hx eq_refl). destruct Hx as [Hx _].
  vm_compute in Hx. apply Hx. reflexivity.
Qed.

Check C05_accept_implies_bounds.
Check C05_setup.
Check C05_channel_value.
Check C05_onchain.

(** The two fee helpers behind every fee-range bound above (and behind the fee checks of the
    mutual-close, sweep and on-chain models, which use the same definitions) are the ones in the
    source: Gen/TxUtilGen.v is the statement-by-statement translation of
    [estimate_feerate_per_kw] and [expected_commitment_tx_weight]
    (vls-core/src/util/transaction_utils.rs, regenerated on every run by tools/gen_rustfn.py).
    For every u64 fee and every non-zero weight the estimate is, in both build profiles, the
    model's value - no panic, no wrap, no truncation; a weight of 0 is a panic. *)
Theorem C05_feerate_estimate_is_source :
  forall (prof : profile) (fee w : N),
    fee <= U64MAX -> 0 < w ->
    TxUtilGen.gen_estimate_feerate_per_kw prof fee w = Val (estimate_feerate_per_kw fee w).
Proof. exact TxUtilGenProofs.gen_estimate_is_model. Qed.
Print Assumptions C05_feerate_estimate_is_source.

Theorem C05_feerate_estimate_zero_weight_panics :
  forall (prof : profile) (fee : N),
    fee <= U64MAX -> TxUtilGen.gen_estimate_feerate_per_kw prof fee 0 = Trap.
Proof. exact TxUtilGenProofs.gen_estimate_zero_weight. Qed.
Print Assumptions C05_feerate_estimate_zero_weight_panics.

Theorem C05_commitment_weight_is_source :
  forall (prof : profile) (anchors : bool) (n : N),
    n * 172 + 1124 <= U64MAX ->
    TxUtilGen.gen_expected_commitment_tx_weight prof anchors n = Val (expected_weight anchors n).
Proof. exact TxUtilGenProofs.gen_weight_is_model. Qed.
Print Assumptions C05_commitment_weight_is_source.

(** The commitment rules themselves are the ones in the source.  Gen/CommitmentPolicyGen.v is the
    statement-by-statement translation (tools/gen_rustfn.py, regenerated on every run) of
      SimpleValidator::validate_expiry, ::validate_fee and ::validate_commitment_tx - the whole body:
        both main-output dust checks, the HTLC count, the two trim limits, both HTLC loops (expiry
        window, checked accumulation, trim limit - in this order, the first error leaves the
        function), the in-flight limit, the expected weight, the checked sum of the outputs, the
        validate_fee call (with its map_err, which keeps the tag), value_to_parties and the rules
        for the initial commitment, up to the final Ok(()) -
      with ChannelSetup::is_anchors, ::is_zero_fee_htlc and CommitmentInfo2::value_to_parties,
    over records generated from the declarations of HTLCInfo2, CommitmentInfo2, ChannelSetup,
    ChainState, SimplePolicy and the enum CommitmentType, with the constants MAX_CLTV_EXPIRY,
    MIN_CHAN_DUST_LIMIT_SATOSHIS, MIN_DUST_LIMIT_SATOSHIS read from their files; the feerate
    estimate and the expected weight are the translations of Gen/TxUtilGen.v.  Dropped by the
    translation: the scoped_debug_return! guard and the debug! line (logging).  Parameters of the
    translation: the policy filter (a function of the tag string) and LDK's answers
    htlc_timeout_tx_weight / htlc_success_tx_weight for the channel type.

    For every value of the source's structs, every filter and both build profiles the generated
    function answers exactly what the model answers on the abstraction of that value
    ([abs_*] of Proofs/CommitmentPolicyGenProofs.v forget payment hashes, keys and scripts;
    [tag_filter] reads the filter on the names of the model's tags; [of_res] keeps the tag of a
    refusal and maps a panic to a panic). *)
Theorem C05_expiry_rule_is_source :
  forall (prof : profile) (swarn : string -> bool) (gp : CommitmentPolicyGen.SimplePolicy)
         (name : string) (expiry current_height : N),
    CommitmentPolicyGen.gen_validate_expiry prof swarn gp name expiry current_height =
    CommitmentPolicyGenProofs.of_res
      (validate_expiry prof (CommitmentPolicyGenProofs.tag_filter swarn)
                       (CommitmentPolicyGenProofs.abs_policy gp) expiry current_height).
Proof. exact CommitmentPolicyGenProofs.gen_expiry_is_model. Qed.
Print Assumptions C05_expiry_rule_is_source.

(** side condition: the input sum is a u64 (it is: [setup.channel_value_sat]) *)
Theorem C05_fee_rule_is_source :
  forall (prof : profile) (swarn : string -> bool) (gp : CommitmentPolicyGen.SimplePolicy)
         (sum_inputs sum_outputs weight : N),
    (sum_inputs <=? U64MAX) = true ->
    CommitmentPolicyGen.gen_validate_fee prof swarn gp (tag_name T_fee_range) sum_inputs sum_outputs weight =
    CommitmentPolicyGenProofs.of_res
      (validate_fee est_new (CommitmentPolicyGenProofs.tag_filter swarn)
                    (CommitmentPolicyGenProofs.abs_policy gp) sum_inputs sum_outputs weight).
Proof. exact CommitmentPolicyGenProofs.gen_fee_is_model. Qed.
Print Assumptions C05_fee_rule_is_source.

(** side conditions ([commit_fits], a boolean that holds for every value of the Rust types):
    channel_value_sat <= u64::MAX, feerate_per_kw <= u32::MAX, and
    (offered + received HTLCs) * 172 + 1124 <= usize::MAX.  The LDK weights are the model's
    663 / 703 (read only for channel types without zero-fee HTLC transactions).  [estate] and
    [point] stand for the two arguments the function only logs. *)
Theorem C05_commitment_rules_are_source :
  forall (prof : profile) (swarn : string -> bool) (gp : CommitmentPolicyGen.SimplePolicy)
         (estate commit_num point : N) (gs : CommitmentPolicyGen.ChannelSetup)
         (gcs : CommitmentPolicyGen.ChainState) (gi : CommitmentPolicyGen.CommitmentInfo2),
    CommitmentPolicyGenProofs.commit_fits gs gi = true ->
    CommitmentPolicyGen.gen_validate_commitment_tx prof swarn gp HTLC_TIMEOUT_WEIGHT HTLC_SUCCESS_WEIGHT
      estate commit_num point gs gcs gi =
    CommitmentPolicyGenProofs.of_res
      (validate_commitment est_new prof (CommitmentPolicyGenProofs.tag_filter swarn)
         (CommitmentPolicyGenProofs.abs_policy gp) (CommitmentPolicyGenProofs.abs_setup gs)
         (CommitmentPolicyGenProofs.abs_chain gcs) commit_num (CommitmentPolicyGenProofs.abs_info gi)).
Proof. exact CommitmentPolicyGenProofs.gen_commitment_is_model. Qed.
Print Assumptions C05_commitment_rules_are_source.

(** Hence the bounds hold for what the *source's* function accepts: under a filter that
    downgrades nothing, [Ok(())] of the translated validate_commitment_tx implies the whole
    conjunction on the abstraction of its arguments (same premises as
    [C05_accept_implies_bounds]). *)
Theorem C05_source_accept_implies_bounds :
  forall (prof : profile) (swarn : string -> bool) (gp : CommitmentPolicyGen.SimplePolicy)
         (estate commit_num point : N) (gs : CommitmentPolicyGen.ChannelSetup)
         (gcs : CommitmentPolicyGen.ChainState) (gi : CommitmentPolicyGen.CommitmentInfo2),
    (forall t, swarn t = false) ->
    CommitmentPolicyGenProofs.commit_fits gs gi = true ->
    max_feerate (CommitmentPolicyGenProofs.abs_policy gp) < U32MAX ->
    heights_fit prof (CommitmentPolicyGenProofs.abs_policy gp) (CommitmentPolicyGenProofs.abs_chain gcs) ->
    CommitmentPolicyGen.gen_validate_commitment_tx prof swarn gp HTLC_TIMEOUT_WEIGHT HTLC_SUCCESS_WEIGHT
      estate commit_num point gs gcs gi = Val (Rust.OkR tt) ->
    Bounds (CommitmentPolicyGenProofs.abs_policy gp) (CommitmentPolicyGenProofs.abs_setup gs)
           (CommitmentPolicyGenProofs.abs_chain gcs) commit_num (CommitmentPolicyGenProofs.abs_info gi).
Proof.
  intros prof swarn gp estate n point gs gcs gi Hw Hfit Hm Hh H.
  rewrite CommitmentPolicyGenProofs.gen_commitment_is_model in H by exact Hfit.
  apply CommitmentPolicyGenProofs.of_res_ok in H.
  eapply accept_implies_bounds; [| exact Hm | exact Hh | exact H].
  intros t. apply Hw.
Qed.
Print Assumptions C05_source_accept_implies_bounds.

(** The two entry points are the source's as well.  Gen/EnforcementRulesGen.v is the statement-by-statement
    translation of SimpleValidator's validate_counterparty_commitment_tx and
    validate_holder_commitment_tx - whole bodies: the call of validate_commitment_tx with its `?`, the
    revocation window (policy-commitment-previous-revoked), the retry rules against the stored point
    and contents (policy-commitment-retry-same; on the holder side a panic when there is no current
    commitment), policy-commitment-holder-not-revoked and the closed-channel rule
    (policy-commitment-spends-active-utxo) - over the EnforcementState record of Gen/EnforcementGen.v.
    In the translation the answer of the call `self.validate_commitment_tx(estate, commit_num,
    commitment_point, setup, cstate, info2)` is a parameter; here it is the translated
    validate_commitment_tx of Gen/CommitmentPolicyGen.v for the same number, so the statements are about
    the whole functions and compose with [C05_commitment_rules_are_source].  The entry points see the
    setup, the chain state and the content as identities ([sid], [csid], [c]; `==` on contents and
    points is equality of identities), and [abs_estate ge pt c] computes the model's comparison
    answers from the source-level state.  Dropped: the leading `if let Some(current) = .. { log the
    HTLC deltas }` block, the debugging guard, logging.  Same side condition as
    [C05_commitment_rules_are_source]; refusal tags and panics included, every filter, both profiles. *)
Theorem C05_counterparty_rules_are_source :
  forall (prof : profile) (swarn : string -> bool) (gp : CommitmentPolicyGen.SimplePolicy)
         (ge : EnforcementGen.res) (commit_num pt eid pid sid csid c : N)
         (gs : CommitmentPolicyGen.ChannelSetup) (gcs : CommitmentPolicyGen.ChainState)
         (gi : CommitmentPolicyGen.CommitmentInfo2),
    CommitmentPolicyGenProofs.commit_fits gs gi = true ->
    EnforcementRulesGen.gen_validate_counterparty_commitment_tx prof swarn
      (CommitmentPolicyGen.gen_validate_commitment_tx prof swarn gp HTLC_TIMEOUT_WEIGHT HTLC_SUCCESS_WEIGHT
         eid commit_num pid gs gcs gi)
      ge commit_num pt sid csid c =
    CommitmentPolicyGenProofs.of_res
      (validate_counterparty_commitment est_new prof (CommitmentPolicyGenProofs.tag_filter swarn)
         (CommitmentPolicyGenProofs.abs_policy gp) (CommitmentEntryGenProofs.abs_estate ge pt c)
         (CommitmentPolicyGenProofs.abs_setup gs) (CommitmentPolicyGenProofs.abs_chain gcs) commit_num
         (CommitmentPolicyGenProofs.abs_info gi)).
Proof. exact CommitmentEntryGenProofs.gen_counterparty_is_model. Qed.
Print Assumptions C05_counterparty_rules_are_source.

Theorem C05_holder_rules_are_source :
  forall (prof : profile) (swarn : string -> bool) (gp : CommitmentPolicyGen.SimplePolicy)
         (ge : EnforcementGen.res) (commit_num pt eid pid sid csid c : N)
         (gs : CommitmentPolicyGen.ChannelSetup) (gcs : CommitmentPolicyGen.ChainState)
         (gi : CommitmentPolicyGen.CommitmentInfo2),
    CommitmentPolicyGenProofs.commit_fits gs gi = true ->
    EnforcementRulesGen.gen_validate_holder_commitment_tx prof swarn
      (CommitmentPolicyGen.gen_validate_commitment_tx prof swarn gp HTLC_TIMEOUT_WEIGHT HTLC_SUCCESS_WEIGHT
         eid commit_num pid gs gcs gi)
      ge commit_num pt sid csid c =
    CommitmentPolicyGenProofs.of_res
      (validate_holder_commitment est_new prof (CommitmentPolicyGenProofs.tag_filter swarn)
         (CommitmentPolicyGenProofs.abs_policy gp) (CommitmentEntryGenProofs.abs_estate ge pt c)
         (CommitmentPolicyGenProofs.abs_setup gs) (CommitmentPolicyGenProofs.abs_chain gcs) commit_num
         (CommitmentPolicyGenProofs.abs_info gi)).
Proof. exact CommitmentEntryGenProofs.gen_holder_is_model. Qed.
Print Assumptions C05_holder_rules_are_source.

(** The channel-size rule is the source's.  SimpleValidator::validate_channel_value (whole body;
    `impl Validator for SimpleValidator`, policy/simple_validator.rs), which channel.rs calls before
    every counterparty-commitment signature with the policy in force at that moment, is translated on
    every run and equals the model's [validate_channel_value] (policy-funding-max) for every policy,
    setup, filter and both build profiles; under a filter that leaves the tag alone its Ok means
    channel_value_sat <= max_channel_size_sat. *)
Theorem C05_channel_value_rule_is_source :
  forall (prof : profile) (swarn : string -> bool) (gp : CommitmentPolicyGen.SimplePolicy)
         (gs : CommitmentPolicyGen.ChannelSetup),
    CommitmentPolicyGen.gen_validate_channel_value prof swarn gp gs =
    CommitmentPolicyGenProofs.of_res
      (validate_channel_value (CommitmentPolicyGenProofs.tag_filter swarn)
         (CommitmentPolicyGenProofs.abs_policy gp) (CommitmentPolicyGenProofs.abs_setup gs)).
Proof. exact CommitmentPolicyGenProofs.gen_channel_value_is_model. Qed.
Print Assumptions C05_channel_value_rule_is_source.

Theorem C05_source_channel_value_ok_implies_bound :
  forall (prof : profile) (swarn : string -> bool) (gp : CommitmentPolicyGen.SimplePolicy)
         (gs : CommitmentPolicyGen.ChannelSetup),
    swarn "policy-funding-max"%string = false ->
    CommitmentPolicyGen.gen_validate_channel_value prof swarn gp gs = Val (Rust.OkR tt) ->
    CommitmentPolicyGen.ChannelSetup_channel_value_sat gs <= CommitmentPolicyGen.SimplePolicy_max_channel_size_sat gp.
Proof.
  intros prof swarn gp gs Hw H.
  rewrite CommitmentPolicyGenProofs.gen_channel_value_is_model in H.
  apply CommitmentPolicyGenProofs.of_res_ok in H.
  unfold validate_channel_value in H. rewrite check_ok_iff in H. specialize (H Hw).
  cbn [CommitmentPolicyGenProofs.abs_policy CommitmentPolicyGenProofs.abs_setup max_channel_size
       channel_value] in H. clear Hw. lia.
Qed.
Print Assumptions C05_source_channel_value_ok_implies_bound.
