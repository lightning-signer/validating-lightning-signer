(** The properties of the component models, restated over joint histories of the whole node
    (Model/Joint.v): several channels, each with its enforcement state machine, and the
    node-wide payment bookkeeping, where the payment verdict of every commitment update is
    COMPUTED from the ledger and the enforcement verdict from the counters instead of being
    inputs.  J_C01 to J_C06: by projection (Proofs/JointProofs.v) onto the theorems of
    Props/C01.v, C02.v, C03.v and C06.v. *)
From VLS Require Import Base.U64 Model.Joint Proofs.EnforcementProofs
  Proofs.JointProofs Props.C01 Props.C02 Props.C03.
From VLS Require Proofs.PaymentsProofs Props.C06 Proofs.JointRefusedProofs.

(** C01 on every channel of every joint history *)
Theorem J_C01_secret_needs_successor :
  forall warn prof nch mf mp (jops : list jop) (ch k : N),
    c01_filter warn -> Forall jwf jops -> jshort nch jops ->
    let g := snd (jc (jrun warn prof nch mf mp (jinit warn prof) jops) ch) in
    In k (disclosed g) -> exists c, In (k + 1, c) (validated g).
Proof.
  intros warn prof nch mf mp jops ch k Hf Hwf Hs g. subst g.
  rewrite chan_history_spec.
  destruct (chan_history_wf warn prof nch mf mp jops ch Hwf Hs) as [W S].
  exact (C01_secret_needs_successor warn prof _ k Hf W S).
Qed.
Print Assumptions J_C01_secret_needs_successor.

(** C02 on every channel of every joint history *)
Theorem J_C02_signed_and_revoked_disjoint :
  forall warn prof nch mf mp (jops : list jop) (ch k n : N) (c : content),
    c01_filter warn -> Forall jwf jops -> jshort nch jops ->
    let g := snd (jc (jrun warn prof nch mf mp (jinit warn prof) jops) ch) in
    In k (disclosed g) -> In (n, c) (hsigned g) -> k < n.
Proof.
  intros warn prof nch mf mp jops ch k n c Hf Hwf Hs g. subst g.
  rewrite chan_history_spec.
  destruct (chan_history_wf warn prof nch mf mp jops ch Hwf Hs) as [W S].
  exact (C02_signed_and_revoked_disjoint warn prof _ k n c Hf W S).
Qed.
Print Assumptions J_C02_signed_and_revoked_disjoint.

(** C03 on every channel of every joint history: a counterparty commitment number is signed
    again only for the identical point and content *)
Theorem J_C03_resign_same :
  forall warn prof nch mf mp (jops : list jop) (ch n : N) (p1 p2 : point) (c1 c2 : content),
    c03_filter warn -> Forall jwf jops ->
    let g := snd (jc (jrun warn prof nch mf mp (jinit warn prof) jops) ch) in
    In (n, p1, c1) (cpsigned g) -> In (n, p2, c2) (cpsigned g) -> p1 = p2 /\ c1 = c2.
Proof.
  intros warn prof nch mf mp jops ch n p1 p2 c1 c2 Hf Hwf g. subst g.
  rewrite chan_history_spec.
  exact (C03_resign_same warn prof _ n p1 p2 c1 c2 Hf (chan_history_ops_wf warn prof nch mf mp jops ch Hwf)).
Qed.
Print Assumptions J_C03_resign_same.

(** C06 on every joint history: what the ledger holds in flight towards an approved hash stays
    within the value in flight to the node plus the approved amount plus the allowance *)
Theorem J_C06_no_overpay :
  forall warn prof nch mf mp (jops : list jop) (h a : N),
    PaymentsProofs.fresh_history nch mf mp P.pinit (jrun_pops warn prof nch mf mp (jinit warn prof) jops) ->
    let s := jp (jrun warn prof nch mf mp (jinit warn prof) jops) in
    P.inv s h = Some a ->
    P.out_total nch s h * 1000 <= P.in_total nch s h * 1000 + a + mf.
Proof.
  intros warn prof nch mf mp jops h a Hf s. subst s. rewrite jrun_pay. cbn [jinit jp].
  exact (C06.C06_no_overpay nch mf mp _ h a Hf).
Qed.
Print Assumptions J_C06_no_overpay.

(** What neither component model can state: in every joint history, a revocation request moves
    the holder counter of a channel (and so hands out the secret of the commitment it leaves
    behind) only if the node-wide payment check accepts, on the ledger as it is at that moment,
    the HTLCs of the validated commitment that becomes current. *)
Theorem J_revoke_needs_payment_check :
  forall warn prof nch mf mp (jops : list jop) (ch n : N) (c : P.content),
    c01_filter warn -> Forall jwf jops -> jshort nch jops ->
    let s := jrun warn prof nch mf mp (jinit warn prof) jops in
    let s' := fst (jstep warn prof nch mf mp s (JRevoke ch n)) in
    slot_next_h (fst (jc s' ch)) <> slot_next_h (fst (jc s ch)) ->
    P.hnxt (P.chans (jp s) ch) = Some c ->
    P.validate_payments nch mf mp (jp s) ch (Some c) None = true.
Proof.
  intros warn prof nch mf mp jops ch n c _ Hwf _.
  exact (revoke_needs_payment_check warn prof nch mf mp jops ch n c Hwf).
Qed.
Print Assumptions J_revoke_needs_payment_check.

(** C10 over joint histories: under the default filter a commitment request that the node refuses
    - because the enforcement state machine of its channel says no, or because the node-wide payment
    check on the ledger says no - leaves the payment bookkeeping (invoices, records, ledger, channel
    contents) and the slot of EVERY channel (memory and store image) exactly as they were. *)
Theorem J_C10_refused_changes_nothing :
  forall warn prof nch mf mp (jops : list jop) (o : jop),
    (forall t, warn t = false) -> Forall jwf jops -> jshort nch jops -> jwf o ->
    let s := jrun warn prof nch mf mp (jinit warn prof) jops in
    st (snd (jstep warn prof nch mf mp s o)) = Refused ->
    jp (fst (jstep warn prof nch mf mp s o)) = jp s /\
    forall ch, fst (jc (fst (jstep warn prof nch mf mp s o)) ch) = fst (jc s ch).
Proof.
  intros warn prof nch mf mp jops o _ Hwf _ _.
  exact (JointRefusedProofs.joint_refused_changes_nothing warn prof nch mf mp jops o Hwf).
Qed.
Print Assumptions J_C10_refused_changes_nothing.

(** C11 over joint histories: in every reachable state of the whole node the memory image of every
    channel is its persisted image, and a restart of the signer (every channel re-read from the
    store) leaves every channel exactly as it was. *)
Theorem J_C11_restart_is_invisible :
  forall warn prof nch mf mp (jops : list jop) (ch : N),
    c01_filter warn -> Forall jwf jops -> jshort nch jops ->
    let s := jrun warn prof nch mf mp (jinit warn prof) jops in
    slot_durable (fst (jc s ch)) /\
    fst (jc (fst (jstep warn prof nch mf mp s JRestart)) ch) = fst (jc s ch).
Proof.
  intros warn prof nch mf mp jops ch _ Hwf _.
  exact (JointRefusedProofs.joint_restart_invisible warn prof nch mf mp jops ch Hwf).
Qed.
Print Assumptions J_C11_restart_is_invisible.

(** Non-vacuity: two channels, an approved payment of 100 000 sat validated on channel 0, the
    same payment signed on channel 1, then the revocation on channel 0: refused by the payment
    re-check (the counter stays), and after channel 1 dropped the HTLC again it goes through and
    hands out secret 0. *)
Example J_nonvacuous :
  let c := P.mkCt [(1, 100000)] [] in
  let e := P.mkCt [] [] in
  let ops := [JAddInvoice 1 100000000; JValidateHolder 0 1 1 c SGood true; JCpRevoke 1 0 0 0 true;
              JSignCp 1 1 1 1 c true; JRevoke 0 1] in
  let s := jrun strict Debug 2 222000 10 (jinit strict Debug) ops in
  Forall jwf ops /\ jshort 2 ops /\
  slot_next_h (fst (jc s 0)) = Some 1 /\ disclosed (snd (jc s 0)) = [] /\
  let ops2 := [JCpRevoke 1 0 0 0 true; JSignCp 1 2 2 0 e true; JRevoke 0 1] in
  let s2 := jrun strict Debug 2 222000 10 s ops2 in
  slot_next_h (fst (jc s2 0)) = Some 2 /\ disclosed (snd (jc s2 0)) = [0].
Proof.
  cbv zeta. split; [repeat constructor; cbv; discriminate|].
  split; [cbv; discriminate|]. vm_compute. repeat split; reflexivity.
Qed.
