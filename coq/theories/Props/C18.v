(** C18 — channel keys are a stable function of seed and channel id.

    HKDF, SHA-256 (in the key derivation), BIP32, the LND path and the EC multiplication are
    universally quantified parameters of the history theorems; the tree theorems are stated for
    every hash and instantiated with the Gallina SHA-256 of Base/Sha256.v. *)
From Coq Require Import String.
From VLS Require Import Base.U64 Base.Sha256 Model.Secrets Model.Keys Model.KeysCheck
  Proofs.SecretsProofs Proofs.KeysProofs.
From VLS Require Base.Sha256Eval.

(** For the Native and Ldk styles, every keys-manager state reachable from the same seed, style
    and network by any history (channels created in any order, set up or not, restarts, other
    derivations, random channel ids) derives the same keys for the same channel id. *)
Theorem C18_history_independent :
  forall hkdf sha xpriv bip_master bip_child_h bip_priv lnd_key
         (seed : bytes) (st : style) (net : N) (ops1 ops2 : list op) (id : bytes),
    st = Native \/ st = Ldk ->
    fst (derive hkdf sha xpriv bip_master bip_child_h bip_priv lnd_key
           (n_mgr (run hkdf sha xpriv bip_master bip_child_h bip_priv lnd_key seed st net ops1)) id)
    = fst (derive hkdf sha xpriv bip_master bip_child_h bip_priv lnd_key
           (n_mgr (run hkdf sha xpriv bip_master bip_child_h bip_priv lnd_key seed st net ops2)) id).
Proof.
  intros. apply manager_history_independent. destruct H as [-> | ->]; discriminate.
Qed.
Print Assumptions C18_history_independent.

(** Every channel slot of every reachable node (stub or set up, before or after any number of
    restarts, whatever other channels exist) carries exactly [keys_of style net seed id]; hence
    its basepoints, funding key, per-commitment points and released secrets for any list of
    commitment numbers are those of that function. *)
Theorem C18_channel_keys_function :
  forall hkdf sha xpriv bip_master bip_child_h bip_priv lnd_key point (pub_of : bytes -> point)
         (seed : bytes) (st : style) (net : N) (ops : list op) (id : bytes) (sl : slot) (ns : list nat),
    st = Native \/ st = Ldk ->
    lookup id (n_chans (run hkdf sha xpriv bip_master bip_child_h bip_priv lnd_key seed st net ops)) = Some sl ->
    exists k, keys_of hkdf sha xpriv bip_master bip_child_h bip_priv lnd_key st net seed id = Some k /\
              s_keys sl = k /\
              observe sha point pub_of (s_keys sl) ns = observe sha point pub_of k ns.
Proof.
  intros until ns. intros Hs Hl.
  assert (st <> Lnd) as Hn by (destruct Hs as [-> | ->]; discriminate).
  pose proof (node_keys_function hkdf sha xpriv bip_master bip_child_h bip_priv lnd_key seed st net ops id sl Hn Hl) as Hk.
  exists (s_keys sl). split; [symmetry; exact Hk|]. split; reflexivity.
Qed.
Print Assumptions C18_channel_keys_function.

(** check_future_secret (the CheckFutureSecret route) on any channel slot of any reachable node
    accepts exactly the secret that [keys_of style net seed id] has at the number asked. *)
Theorem C18_check_future_secret :
  forall hkdf sha xpriv bip_master bip_child_h bip_priv lnd_key
         (seed : bytes) (st : style) (net : N) (ops : list op) (id : bytes) (sl : slot) (n : nat) (s : bytes),
    st = Native \/ st = Ldk ->
    lookup id (n_chans (run hkdf sha xpriv bip_master bip_child_h bip_priv lnd_key seed st net ops)) = Some sl ->
    exists k, keys_of hkdf sha xpriv bip_master bip_child_h bip_priv lnd_key st net seed id = Some k /\
              (check_future_secret sha (s_keys sl) n s = true <-> s = commit_secret sha k n).
Proof.
  intros until s. intros Hs Hl.
  assert (st <> Lnd) as Hn by (destruct Hs as [-> | ->]; discriminate).
  pose proof (node_keys_function hkdf sha xpriv bip_master bip_child_h bip_priv lnd_key seed st net ops id sl Hn Hl) as Hk.
  exists (s_keys sl). split; [symmetry; exact Hk|]. apply check_future_secret_spec.
Qed.
Print Assumptions C18_check_future_secret.

(** Channels are named by (peer id, dbid); the channel id is an injective function of that
    pair on all 64-bit dbids, and it is one of the id shapes [C18_distinct] speaks about.  So
    two channels of any peers with different (peer, dbid) have different ids, hence (by
    [C18_distinct]) different keys. *)
Theorem C18_channel_id_injective :
  forall (p1 p2 : bytes) (d1 d2 : N),
    length p1 = 33%nat -> length p2 = 33%nat -> d1 < two64 -> d2 < two64 ->
    chan_id_of p1 d1 = chan_id_of p2 d2 -> p1 = p2 /\ d1 = d2.
Proof. intros. apply chan_id_of_inj; congruence. Qed.
Print Assumptions C18_channel_id_injective.

Theorem C18_channel_id_is_api_id :
  forall (peer : bytes) (dbid : N), length peer = 33%nat -> 0 < dbid < two64 -> api_id (chan_id_of peer dbid).
Proof. exact chan_id_of_api. Qed.

(** Different channel ids (of the shapes the API produces) give different keys, provided the
    hash parameters are injective where they are used: the per-channel HKDF in its salt (after
    the LDK mask for the Ldk style), the 192-byte expansion in its key, SHA-256 on its inputs.
    For the Ldk style the commitment seeds differ as well. *)
Theorem C18_distinct :
  forall (hkdf : bytes -> bytes -> bytes -> nat -> bytes) (sha : bytes -> bytes) (xpriv : Type)
         (bip_master : N -> bytes -> xpriv) (bip_child_h : xpriv -> N -> xpriv) (bip_priv : xpriv -> bytes)
         (lnd_key : N -> xpriv -> N -> N -> bytes) (seed : bytes) (net : N),
    (forall s i salt n, length (hkdf s i salt n) = (32 * n)%nat) ->
    (forall s i salt n, Forall (fun b => b < 256) (hkdf s i salt n)) ->
    (forall st id1 id2, api_id id1 -> api_id id2 -> id1 <> id2 ->
        keys_id hkdf st (channels_seed hkdf seed) id1 <> keys_id hkdf st (channels_seed hkdf seed) id2) ->
    (forall k1 k2, k1 <> k2 -> hkdf k1 s_clightning [] 6%nat <> hkdf k2 s_clightning [] 6%nat) ->
    (forall a b, sha a = sha b -> a = b) ->
    forall st id1 id2, st = Native \/ st = Ldk -> api_id id1 -> api_id id2 -> id1 <> id2 ->
    exists k1 k2,
      keys_of hkdf sha xpriv bip_master bip_child_h bip_priv lnd_key st net seed id1 = Some k1 /\
      keys_of hkdf sha xpriv bip_master bip_child_h bip_priv lnd_key st net seed id2 = Some k2 /\
      k1 <> k2 /\ (st = Ldk -> k_cseed k1 <> k_cseed k2).
Proof.
  intros until id2. intros Hs.
  apply distinct_ids_distinct_keys; try assumption.
  destruct Hs as [-> | ->]; discriminate.
Qed.
Print Assumptions C18_distinct.

(** Channels with different commitment seeds release different secrets at every commitment
    number (SHA-256 injective; the bit flip is an involution, proved). *)
Theorem C18_distinct_secrets :
  forall (sha : bytes -> bytes), (forall a b, sha a = sha b -> a = b) ->
  forall (k1 k2 : chkeys) (n : nat),
    k_cseed k1 <> k_cseed k2 -> commit_secret sha k1 n <> commit_secret sha k2 n.
Proof. intros sha Hinj k1 k2 n. apply distinct_seeds_distinct_secrets; exact Hinj. Qed.
Print Assumptions C18_distinct_secrets.

(** The HMAC key normalisation (zero padding to the block) is injective on the channel ids the
    API produces, so the salt-injectivity premise of [C18_distinct] is not refuted by padding. *)
Theorem C18_api_ids_not_confused_by_padding :
  forall a b, api_id a -> api_id b -> hmac_key a = hmac_key b -> a = b.
Proof. exact hmac_key_inj_on_api. Qed.

(** BOLT-3 derivation tree, for every hash: the secret of index k is reached from the secret
    of k with its low p bits cleared by the last p derivation steps. *)
Theorem C18_derivation_tree :
  forall (T : Type) (H : T -> T) (flip : nat -> T -> T) (seed : T) (k : N) (p : nat),
    (p <= 48)%nat ->
    build_commitment_secret T H flip seed k
    = derive_secret T H flip (build_commitment_secret T H flip seed (clear_low p k)) p k.
Proof. exact derive_prefix. Qed.
Print Assumptions C18_derivation_tree.

(** Compact storage, for every hash and every seed: the secrets of commitment numbers
    0, 1, …, n-1 (indices 2^48-1, 2^48-2, …), provided in that order to an empty
    CounterpartyCommitmentSecrets, are all accepted; the store never holds more than 49
    entries; and every one of them is returned by get_secret.  n ranges up to 2^48. *)
Theorem C18_tree_any_hash :
  forall (T : Type) (H : T -> T) (flip : nat -> T -> T) (eqS : T -> T -> bool),
    (forall s, eqS s s = true) ->
    forall (seed : T) (n : nat), N.of_nat n <= TWO48 ->
    exists st, feed_first T H flip eqS seed n = (st, true) /\ (length st <= 49)%nat /\
      forall c, (c < n)%nat ->
        get_secret T H flip st (idx_of_commit c) = Found (build_commitment_secret T H flip seed (idx_of_commit c)).
Proof. exact feed_first_ok. Qed.
Print Assumptions C18_tree_any_hash.

(** … and for the secrets a channel actually releases (SHA-256, byte strings). *)
Theorem C18_tree :
  forall (k : chkeys) (n : nat), N.of_nat n <= TWO48 ->
  exists st, feed_first bytes sha256 flip_bit bytes_eqb (k_cseed k) n = (st, true) /\ (length st <= 49)%nat /\
    forall c, (c < n)%nat -> bget st (idx_of_commit c) = Found (commit_secret sha256 k c).
Proof.
  intros k n Hn. apply (feed_first_ok bytes sha256 flip_bit bytes_eqb); [|exact Hn].
  intros s. apply bytes_eqb_eq. reflexivity.
Qed.
Print Assumptions C18_tree.

(** BOLT-3 appendix D "generation tests" *)
Example C18_bolt3_generate_from_seed_0_final :
  build_secret (repeat_bytes 32 [0]) 281474976710655
  = of_hex "02a40c85b6f28da08dfdbe0926c53fab2de6d28c10301f8f7c4073d5e42e3148".
Proof. rewrite build_secret_eval. vm_compute. reflexivity. Qed.
Example C18_bolt3_generate_from_seed_FF_final :
  build_secret (repeat_bytes 32 [255]) 281474976710655
  = of_hex "7cc854b54e3e0dcdb010d7a3fee464a9687be6e8db3be6854c475621e007a5dc".
Proof. rewrite build_secret_eval. vm_compute. reflexivity. Qed.
Example C18_bolt3_generate_from_seed_FF_alternate_bits_1 :
  build_secret (repeat_bytes 32 [255]) 0xaaaaaaaaaaa
  = of_hex "56f4008fb007ca9acf0e15b054d5c9fd12ee06cea347914ddbaed70d1c13a528".
Proof. rewrite build_secret_eval. vm_compute. reflexivity. Qed.
Example C18_bolt3_generate_from_seed_FF_alternate_bits_2 :
  build_secret (repeat_bytes 32 [255]) 0x555555555555
  = of_hex "9015daaeb06dba4ccc05b91b2f73bd54405f2be9f217fbacd3c5ac2e62327d31".
Proof. rewrite build_secret_eval. vm_compute. reflexivity. Qed.
Example C18_bolt3_generate_from_seed_01_last_nontrivial_node :
  build_secret (repeat_bytes 32 [1]) 1
  = of_hex "915c75942a26bb3a433a8ce2cb0427c29ec6c1775cfc78328b57f6ba7bfeaa9c".
Proof. rewrite build_secret_eval. vm_compute. reflexivity. Qed.

(** the Native keys of a channel id through the evaluator of Base/Sha256Eval.v *)
Lemma native_keys_eval seed id :
  native_keys hkdf_sha256 (keys_id hkdf_sha256 Native (channels_seed hkdf_sha256 seed) id)
  = native_keys Sha256Eval.hkdf_sha256
      (keys_id Sha256Eval.hkdf_sha256 Native (channels_seed Sha256Eval.hkdf_sha256 seed) id).
Proof. unfold native_keys, keys_id, channels_seed; rewrite !Sha256Eval.hkdf_sha256_eval; reflexivity. Qed.

(** a concrete history with two channels, a setup and a restart: both channels are present,
    carry [keys_of], and have different keys (Native style, executable HKDF) *)
Example C18_nonvacuous :
  let seed := repeat_bytes 32 [7] in
  let a := repeat_bytes 33 [2] ++ [1; 0; 0; 0; 0; 0; 0; 0] in
  let b := repeat_bytes 33 [2] ++ [2; 0; 0; 0; 0; 0; 0; 0] in
  let nd := x_run [] seed Native 0 [NewChannel a; NewChannel b; Setup a; Restart; RandomChannelId; NewChannel a] in
  match lookup a (n_chans nd), lookup b (n_chans nd), x_keys_of [] Native 0 seed a, x_keys_of [] Native 0 seed b with
  | Some sa, Some sb, Some ka, Some kb =>
      s_ready sa = true /\ s_ready sb = false /\ s_keys sa = ka /\ s_keys sb = kb /\
      bytes_eqb (k_funding ka) (k_funding kb) = false /\ length (k_cseed ka) = 32%nat
  | _, _, _, _ => False
  end.
Proof.
  intros seed a b nd.
  (* which channels the node has, and which are set up, is read off the run without looking at
     their keys: those are the Native keys of the ids by [native_slot_keys] *)
  assert (Ra : option_map s_ready (lookup a (n_chans nd)) = Some true) by (vm_compute; reflexivity).
  assert (Rb : option_map s_ready (lookup b (n_chans nd)) = Some false) by (vm_compute; reflexivity).
  destruct (lookup a (n_chans nd)) as [sa|] eqn:La; [|discriminate].
  destruct (lookup b (n_chans nd)) as [sb|] eqn:Lb; [|discriminate].
  injection Ra as Ra. injection Rb as Rb. unfold x_keys_of.
  rewrite (keys_of_native hkdf_sha256 sha256 sxpriv x_master x_child (fun x => olookup x []) x_lnd 0 seed a),
    (keys_of_native hkdf_sha256 sha256 sxpriv x_master x_child (fun x => olookup x []) x_lnd 0 seed b).
  split; [exact Ra|]. split; [exact Rb|].
  split; [exact (native_slot_keys _ _ _ _ _ _ _ _ _ _ _ _ La)|].
  split; [exact (native_slot_keys _ _ _ _ _ _ _ _ _ _ _ _ Lb)|].
  (* left to evaluate: the seed of the channel ids once, and of each key set only what the first
     slice of the expansion needs - the checker evaluates by need *)
  rewrite (native_keys_eval seed a), (native_keys_eval seed b).
  evaluated (channels_seed Sha256Eval.hkdf_sha256 seed) Ec. rewrite Ec.
  split; vm_compute; reflexivity.
Qed.

(** the Lnd style is excluded for a reason: with any key path that reads the running index the
    keys of a channel depend on how many derivations came before *)
Example C18_lnd_order_dependent :
  let hk := fun (_ _ _ : bytes) (_ : nat) => @nil N in
  let lk := fun (_ : N) (_ : unit) (fam idx : N) => [fam; idx] in
  let d := derive hk (fun b => b) unit (fun _ _ => tt) (fun x _ => x) (fun _ => []) lk in
  let r := run hk (fun b => b) unit (fun _ _ => tt) (fun x _ => x) (fun _ => []) lk [] Lnd 0 in
  fst (d (n_mgr (r [NewChannel [1]])) [2]) <> fst (d (n_mgr (r [])) [2]).
Proof. vm_compute. discriminate. Qed.

(** the domain restriction of [C18_distinct] is needed: HMAC pads its key with zeros, so ids
    that differ by trailing zero bytes have the same keys_id under the real HKDF (not reachable
    through Node::new_channel / new_channel_with_random_id, whose ids satisfy [api_id]) *)
Example C18_distinct_needs_api_ids :
  x_keys_id Native (repeat_bytes 32 [7]) [1; 2; 3] = x_keys_id Native (repeat_bytes 32 [7]) [1; 2; 3; 0].
Proof. unfold x_keys_id. apply keys_id_reads_padded_salt. reflexivity. Qed.

(** check_future_secret on concrete secrets: the own secret of n is accepted, the neighbours'
    secrets are not *)
Example C18_check_future_nonvacuous :
  let cseed := repeat_bytes 32 [9] in
  x_check_future cseed 1 (secret_at cseed 1) = true /\
  x_check_future cseed 1 (secret_at cseed 0) = false /\
  x_check_future cseed 1 (secret_at cseed 2) = false /\
  x_check_future cseed 281474976710655 (secret_at cseed 281474976710655) = true.
Proof.
  intros cseed.
  assert (Hown : forall n, x_check_future cseed n (secret_at cseed n) = true)
    by (intros n; apply bytes_eqb_eq; reflexivity).
  (* numbers 0, 1, 2 are the indices 2^48 - 1, - 2, - 3 *)
  assert (Hfrom : forall n, n < 3 ->
            secret_at cseed n = bderive (build_secret cseed 281474976710648) 3 (TWO48 - 1 - n)).
  { intros n Hn. apply build_secret_from; [lia|].
    assert (n = 0 \/ n = 1 \/ n = 2) as [-> | [-> | ->]] by lia; reflexivity. }
  split; [apply Hown|]. split; [|split; [|apply Hown]];
    unfold x_check_future; rewrite !Hfrom by lia; unfold cseed; rewrite nines_ancestor, !bderive_eval;
    vm_compute; reflexivity.
Qed.

(** dbids that agree in their low 32 bits are different channels *)
Example C18_channel_id_high_bits :
  chan_id_of (repeat_bytes 33 [2]) 7 <> chan_id_of (repeat_bytes 33 [2]) (7 + 4294967296) /\
  skipn 33 (chan_id_of (repeat_bytes 33 [2]) (7 + 4294967296)) = [7; 0; 0; 0; 1; 0; 0; 0] /\
  skipn 33 (chan_id_of (repeat_bytes 33 [2]) 18446744073709551615) = [255; 255; 255; 255; 255; 255; 255; 255].
Proof. vm_compute. repeat split. discriminate. Qed.

(** the store on concrete secrets: five accepted, all returned, three entries; a secret with a
    flipped bit at an even index is refused and leaves the store unchanged *)
Example C18_tree_nonvacuous :
  let seed := repeat_bytes 32 [9] in
  let '(st, ok) := feed_first bytes sha256 flip_bit bytes_eqb seed 5 in
  ok = true /\ length st = 3%nat /\
  bget st (idx_of_commit 0) = Found (build_secret seed (idx_of_commit 0)) /\
  bget st (idx_of_commit 4) = Found (build_secret seed (idx_of_commit 4)) /\
  bget st (idx_of_commit 5) = NotFound /\
  bprovide st (idx_of_commit 5) (flip_bit 3 (build_secret seed (idx_of_commit 5))) = (st, false) /\
  snd (bprovide st (idx_of_commit 5) (build_secret seed (idx_of_commit 5))) = true.
Proof.
  intros seed.
  (* commitment numbers 0..5 are the indices 2^48 - 1 .. 2^48 - 6 *)
  assert (Hfrom : forall c, (c < 6)%nat ->
            build_secret seed (idx_of_commit c)
            = bderive (build_secret seed 281474976710648) 3 (idx_of_commit c)).
  { intros c Hc. apply build_secret_from; [lia|]. do 6 (destruct c as [|c]; [reflexivity|]). lia. }
  rewrite (feed_first_secrets bytes sha256 Sha256Eval.sha256 flip_bit bytes_eqb seed 5
             (fun c => ederive (build_secret seed 281474976710648) 3 (idx_of_commit c)) Sha256Eval.sha256_eval)
    by (intros; rewrite <- bderive_eval; apply Hfrom; lia).
  rewrite (Hfrom 0%nat), (Hfrom 4%nat), (Hfrom 5%nat) by lia.
  unfold seed. rewrite nines_ancestor.
  (* the store once, on the evaluator; then the queries on it *)
  match goal with |- context [fold_left ?f ?l ?a] => evaluated (fold_left f l a) Est; rewrite Est end.
  cbv beta iota; rewrite !bget_eval, !bprovide_eval, !bderive_eval.
  vm_compute. repeat split.
Qed.

Check C18_history_independent.
Check C18_tree.
