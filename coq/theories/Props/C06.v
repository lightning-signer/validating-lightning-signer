(** C06 — approved invoices are never overpaid in flight; unbacked payments are refused. *)
From VLS Require Import Base.U64 Model.Payments Proofs.PaymentsProofs.
From VLS Require Gen.PaymentsGen Proofs.PaymentsGenProofs.

(** For every number of channels, every policy allowance and every history of commitment
    updates (counterparty signing, holder validation, revocation) on any of the channels,
    invoice / keysend approvals and restarts, in which an approval arrives before its payment is
    attempted: for every hash with an approved amount, the value in flight towards it over all
    channels stays within the value in flight to the node plus the approved amount plus the
    routing-fee allowance (msat). *)
Theorem C06_no_overpay :
  forall (nch : nat) (max_fee_msat max_fee_pct : N) (ops : list pop) (h a : N),
    fresh_history nch max_fee_msat max_fee_pct pinit ops ->
    let s := prun nch max_fee_msat max_fee_pct pinit ops in
    inv s h = Some a ->
    out_total nch s h * 1000 <= in_total nch s h * 1000 + a + max_fee_msat.
Proof.
  intros nch mf mp ops h a Hf s Ha.
  exact (pi_pay nch mf _ (prun_keeps nch mf mp ops pinit (PInv_init nch mf) Hf) h a Ha).
Qed.
Print Assumptions C06_no_overpay.

(** The totals above are the in-flight values defined by the current commitments: the ledger row
    of every channel is the summary (larger of the two views for outgoing, smaller for incoming)
    of that channel's current holder and counterparty commitments — also after restarts. *)
Theorem C06_ledger_is_in_flight_value :
  forall (nch : nat) (max_fee_msat max_fee_pct : N) (ops : list pop) (ch h : N),
    fresh_history nch max_fee_msat max_fee_pct pinit ops ->
    ch < N.of_nat nch ->
    let s := prun nch max_fee_msat max_fee_pct pinit ops in
    led s h ch = (in_val (chans s ch) None None h, out_val (chans s ch) None None h).
Proof.
  intros nch mf mp ops ch h Hf Hc s.
  exact (pi_sync nch mf _ (prun_keeps nch mf mp ops pinit (PInv_init nch mf) Hf) ch h Hc).
Qed.
Print Assumptions C06_ledger_is_in_flight_value.

(** An accepted update (counterparty signature or revocation) that carries outgoing value for a
    hash without approval and without any earlier HTLC is covered, in that same update, by
    incoming value for the hash. *)
Theorem C06_unbacked_refused :
  forall (nch : nat) (max_fee_msat max_fee_pct : N) (s : pnode) (ch : N) (c : content) (h : N),
    inv s h = None -> known s h = false ->
    (snd (pstep nch max_fee_msat max_fee_pct s (PSignCp ch c true)) = true ->
       out_val (chans s ch) None (Some c) h <= in_val (chans s ch) None (Some c) h) /\
    (hnxt (chans s ch) = Some c ->
     snd (pstep nch max_fee_msat max_fee_pct s (PRevoke ch)) = true ->
       out_val (chans s ch) (Some c) None h <= in_val (chans s ch) (Some c) None h).
Proof.
  intros nch mf mp s ch c h Hi Hk. destruct (accepted_validated nch mf mp s ch c) as [Hs Hr].
  split; intros; eapply unbacked_refused; eauto.
Qed.
Print Assumptions C06_unbacked_refused.

(** The balance rule all of the above rests on is the one in the source: Gen/PaymentsGen.v is the
    statement-by-statement translation of [SimpleValidator::validate_payment_balance]
    (vls-core/src/policy/simple_validator.rs, regenerated on every run by tools/gen_rustfn.py), and
    under the default policy filter it answers Ok exactly when the model's [balance_ok] holds - in both
    build profiles, without panic or wrap, whenever [outgoing * 100] and
    [incoming + approved + allowance] fit into u64 (msat amounts far beyond the supply of bitcoin). *)
Theorem C06_balance_rule_is_source :
  forall (prof : profile) (max_fee_msat max_fee_pct incoming_msat outgoing_msat : N) (invoiced : option N),
    PaymentsGenProofs.amounts_fit max_fee_msat incoming_msat outgoing_msat invoiced ->
    PaymentsGen.gen_validate_payment_balance prof PaymentsGenProofs.strict_filter
      max_fee_msat max_fee_pct incoming_msat outgoing_msat invoiced =
    Val (balance_ok max_fee_msat max_fee_pct incoming_msat outgoing_msat invoiced).
Proof. exact PaymentsGenProofs.gen_balance_is_model. Qed.
Print Assumptions C06_balance_rule_is_source.

(** Preimages.  The record that the "tolerated for a hash with a payment record" rule reads, and
    that decides which HTLC outputs of a force-closed channel are the node's to claim, is never
    lost by a restart once it carries a preimage: in every reachable state a hash whose preimage
    is recorded has a payment record, and a restart keeps both. *)
Theorem C06_preimage_records_survive_restart :
  forall (nch : nat) (max_fee_msat max_fee_pct : N) (ops : list pop) (h : N),
    let s := prun nch max_fee_msat max_fee_pct pinit ops in
    pre s h = true ->
    known s h = true /\
    let s' := fst (pstep nch max_fee_msat max_fee_pct s PRestart) in
    pre s' h = true /\ known s' h = true.
Proof.
  intros nch mf mp ops h s Hp. split.
  - exact (prun_pre_known nch mf mp ops pinit (PreKnown_init) h Hp).
  - exact (restart_keeps_pre nch s h Hp).
Qed.
Print Assumptions C06_preimage_records_survive_restart.

(** ... and a preimage handed over for a hash that has a payment record is recorded at once. *)
Theorem C06_fulfil_records_preimage :
  forall (nch : nat) (max_fee_msat max_fee_pct : N) (s : pnode) (h : N),
    known s h = true ->
    let s1 := fst (pstep nch max_fee_msat max_fee_pct s (PFulfil h)) in
    let s2 := fst (pstep nch max_fee_msat max_fee_pct s1 PRestart) in
    pre s1 h = true /\ pre s2 h = true /\ known s2 h = true.
Proof.
  intros nch mf mp s h Hk s1 s2.
  assert (H1 : pre s1 h = true) by (subst s1; cbn [pstep fst pre]; rewrite N.eqb_refl, Hk; apply orb_true_r).
  split; [exact H1 | exact (restart_keeps_pre nch s1 h H1)].
Qed.
Print Assumptions C06_fulfil_records_preimage.

(** Non-vacuity: an approved 100 000 sat payment split over two channels up to exactly the
    approved amount plus the allowance, one more satoshi refused, a restart in between. *)
Example C06_nonvacuous :
  let ops := [PAddInvoice 2 100000000;
              PSignCp 0 (mkCt [(2, 50000)] []) true; PSignCp 1 (mkCt [(2, 50222)] []) true;
              PSignCp 1 (mkCt [(2, 50223)] []) true; PRestart;
              PValidateHolder 0 (mkCt [(2, 50000)] []) true; PRevoke 0] in
  fresh_history 2 222000 10 pinit ops /\
  out_total 2 (prun 2 222000 10 pinit ops) 2 = 100222 /\
  snd (pstep 2 222000 10 (prun 2 222000 10 pinit (firstn 3 ops)) (PSignCp 1 (mkCt [(2, 50223)] []) true)) = false.
Proof. vm_compute. repeat split; intros; try reflexivity; discriminate. Qed.

(** The revocation as it was before the repair applied the payments of a holder commitment
    that had been validated against an older ledger: 200 000 sat in flight for 100 000 approved. *)
Example C06_old_revoke_refuted :
  let ops := [PAddInvoice 1 100000000; PValidateHolder 0 (mkCt [(1, 100000)] []) true;
              PSignCp 1 (mkCt [(1, 100000)] []) true] in
  let s := fst (prevoke_old (prun 2 222000 10 pinit ops) 0) in
  fresh_history 2 222000 10 pinit ops /\
  snd (prevoke_old (prun 2 222000 10 pinit ops) 0) = true /\
  in_total 2 s 1 * 1000 + 100000000 + 222000 < out_total 2 s 1 * 1000.
Proof. vm_compute. repeat split; intros; try reflexivity; discriminate. Qed.

(** The payment check the theorems above rest on is the one in the source.  Gen/NodePaymentsGen.v is
    the statement-by-statement translation (tools/gen_rustfn.py, regenerated on every run) of
    NodeState::validate_payments - the whole body: the hash set built from the keys of the two
    summaries, for every hash the per-channel amounts, the payment record, its CLTV bounds
    (validate_payment_cltv), RoutedPayment::updated_incoming_outgoing, the invoice, the call of
    validate_payment_balance (the translation of Gen/PaymentsGen.v), the issue-331 tolerance for an
    uninvoiced hash that has a record, the list of unbalanced hashes and
    policy-commitment-htlc-routing-balance, and the enforce_balance register - with the RoutedPayment
    methods and SimpleValidator::validate_payment_cltv / ::enforce_balance.  Maps and sets are
    association lists / duplicate-free lists (Base/Rust.v); payment hashes and channel ids are
    identities; the hash set (a hashbrown HashSet) is visited in the order [ord hashes] for an
    uninterpreted [ord] of which only [Permutation (ord l) l] is known.

    [abs_node] reads the model's functions ([inv], [known], [led]) off the source-level maps; the
    model's totals range over the channels 0 .. nch-1, so the per-channel maps must have one entry per
    key and keys below nch ([wf_node]).  For every such state, channel, pair of summaries, order of
    visiting, and both build profiles the source accepts exactly when every hash passes the model's
    [hash_ok] (written [hash_ok_sum] for summaries given as look-ups; [hash_ok] is that by
    definition), and refuses with policy-commitment-htlc-routing-balance otherwise.  Assumed, because
    the model does not have it: the CLTV rule passes for the records involved ([cltv_pass];
    policy-routing-cltv-delta is a rule of the source that Model/Payments.v does not describe),
    enforce_balance is off, the three tags involved are not downgraded by the filter, and nothing
    leaves u64 ([hash_fitsb], a boolean over the hashes). *)
From Coq Require Import String.
From Coq Require Permutation.
From Coq Require Import List.
From VLS Require Gen.CommitmentPolicyGen Gen.NodePaymentsGen Proofs.NodePaymentsGenProofs Proofs.RustFacts.
Theorem C06_payment_check_is_source :
  forall (nch : nat) (prof : profile) (swarn : String.string -> bool) (gp : CommitmentPolicyGen.SimplePolicy)
         (ord : list N -> list N) (chs : N -> pchan) (ns : NodePaymentsGen.NodeState) (ch : N)
         (im om : list (N * N)) (bd : NodePaymentsGen.BalanceDelta) (vid : N),
    (forall l, Permutation.Permutation (ord l) l) ->
    NodePaymentsGenProofs.wf_node nch ns ->
    swarn "policy-routing-balanced"%string = false ->
    swarn "policy-htlc-fee-range"%string = false ->
    swarn "policy-commitment-htlc-routing-balance"%string = false ->
    CommitmentPolicyGen.SimplePolicy_enforce_balance gp = false ->
    let s := NodePaymentsGenProofs.abs_node chs ns in
    let mf := CommitmentPolicyGen.SimplePolicy_max_routing_fee_msat gp in
    let mp := CommitmentPolicyGen.SimplePolicy_max_feerate_percentage gp in
    let hashes := Rust.set_extend (Rust.set_extend [] (Rust.map_keys im)) (Rust.map_keys om) in
    (forall h, In h hashes ->
               NodePaymentsGenProofs.cltv_pass prof swarn gp (Rust.map_get (NodePaymentsGen.NodeState_payments ns) h)) ->
    forallb (NodePaymentsGenProofs.hash_fitsb nch mf s ch (hget im) (hget om)) hashes = true ->
    NodePaymentsGen.gen_NodeState_validate_payments prof swarn gp ord ns ch im om bd vid =
    if forallb (NodePaymentsGenProofs.hash_ok_sum nch mf mp s ch (hget im) (hget om)) hashes
    then Val (Rust.OkR tt)
    else Val (Rust.ErrR "policy-commitment-htlc-routing-balance"%string).
Proof. exact NodePaymentsGenProofs.gen_validate_payments_is_model. Qed.
Print Assumptions C06_payment_check_is_source.

(** ... and when the two summaries hold what the model computes from the channel's commitments (the
    values [in_val] / [out_val], the hashes [sum_keys]) the source's answer is the model's
    [validate_payments]. *)
Theorem C06_payment_check_is_validate_payments :
  forall (nch : nat) (prof : profile) (swarn : String.string -> bool) (gp : CommitmentPolicyGen.SimplePolicy)
         (ord : list N -> list N) (chs : N -> pchan) (ns : NodePaymentsGen.NodeState) (ch : N)
         (im om : list (N * N)) (bd : NodePaymentsGen.BalanceDelta) (vid : N) (nh nc : option content),
    (forall l, Permutation.Permutation (ord l) l) ->
    NodePaymentsGenProofs.wf_node nch ns ->
    swarn "policy-routing-balanced"%string = false ->
    swarn "policy-htlc-fee-range"%string = false ->
    swarn "policy-commitment-htlc-routing-balance"%string = false ->
    CommitmentPolicyGen.SimplePolicy_enforce_balance gp = false ->
    let s := NodePaymentsGenProofs.abs_node chs ns in
    let mf := CommitmentPolicyGen.SimplePolicy_max_routing_fee_msat gp in
    let mp := CommitmentPolicyGen.SimplePolicy_max_feerate_percentage gp in
    let hashes := Rust.set_extend (Rust.set_extend [] (Rust.map_keys im)) (Rust.map_keys om) in
    (forall h, In h hashes ->
               NodePaymentsGenProofs.cltv_pass prof swarn gp (Rust.map_get (NodePaymentsGen.NodeState_payments ns) h)) ->
    forallb (NodePaymentsGenProofs.hash_fitsb nch mf s ch (hget im) (hget om)) hashes = true ->
    (forall h, hget im h = in_val (chs ch) nh nc h) ->
    (forall h, hget om h = out_val (chs ch) nh nc h) ->
    (forall h, In h hashes <-> In h (sum_keys (chs ch) nh nc)) ->
    NodePaymentsGen.gen_NodeState_validate_payments prof swarn gp ord ns ch im om bd vid =
    if validate_payments nch mf mp s ch nh nc
    then Val (Rust.OkR tt)
    else Val (Rust.ErrR "policy-commitment-htlc-routing-balance"%string).
Proof.
  intros nch prof swarn gp ord chs ns ch im om bd vid nh nc Hord Hwf Hw1 Hw2 Hw3 Henf s mf mp hashes Hcltv Hfits Hi Ho Hk.
  rewrite (C06_payment_check_is_source nch prof swarn gp ord chs ns ch im om bd vid Hord Hwf Hw1 Hw2 Hw3 Henf Hcltv Hfits).
  fold s mf mp hashes. unfold validate_payments. rewrite (RustFacts.forallb_same_elems _ _ _ Hk).
  rewrite (RustFacts.forallb_ext_in (NodePaymentsGenProofs.hash_ok_sum nch mf mp s ch (hget im) (hget om))
             (hash_ok nch mf mp s ch (chs ch) nh nc)); [reflexivity|].
  intros h _. unfold hash_ok, NodePaymentsGenProofs.hash_ok_sum. rewrite Hi, Ho. reflexivity.
Qed.
Print Assumptions C06_payment_check_is_validate_payments.

(** The booking of one channel's amounts into a payment record is the source's: RoutedPayment::apply
    (translated, never panics) replaces the record's entry for the channel in the incoming and in the
    outgoing map - the ledger update [upd (led h) ch (i, o)] of the model's [apply_one] - keeps the
    preimage, keeps the maps well formed, and otherwise only moves the two CLTV bounds.
    NodeState::apply_payments around it is the subject of C06_payment_booking_is_apply_payments. *)
Theorem C06_payment_booking_is_source :
  forall (prof : profile) (p : NodePaymentsGen.RoutedPayment) (ch i o : N) (ic oc : option N),
  exists p',
    NodePaymentsGen.gen_RoutedPayment_apply prof p ch i o ic oc = Val p' /\
    (forall c, (NodePaymentsGenProofs.get0 (NodePaymentsGen.RoutedPayment_incoming p') c,
                NodePaymentsGenProofs.get0 (NodePaymentsGen.RoutedPayment_outgoing p') c) =
               upd (fun c => (NodePaymentsGenProofs.get0 (NodePaymentsGen.RoutedPayment_incoming p) c,
                              NodePaymentsGenProofs.get0 (NodePaymentsGen.RoutedPayment_outgoing p) c)) ch (i, o) c) /\
    NodePaymentsGen.RoutedPayment_preimage p' = NodePaymentsGen.RoutedPayment_preimage p /\
    (forall nch, ch < N.of_nat nch ->
       NodePaymentsGenProofs.wf_map nch (NodePaymentsGen.RoutedPayment_incoming p) ->
       NodePaymentsGenProofs.wf_map nch (NodePaymentsGen.RoutedPayment_outgoing p) ->
       NodePaymentsGenProofs.wf_map nch (NodePaymentsGen.RoutedPayment_incoming p') /\
       NodePaymentsGenProofs.wf_map nch (NodePaymentsGen.RoutedPayment_outgoing p')).
Proof.
  intros prof p ch i o ic oc. exists (NodePaymentsGenProofs.apply_rec p ch i o ic oc).
  split; [apply NodePaymentsGenProofs.gen_apply_rec|]. split; [apply NodePaymentsGenProofs.apply_rec_row|].
  split; [reflexivity|]. intros nch Hch Wi Wo. split; apply NodePaymentsGenProofs.wf_insert; assumption.
Qed.
Print Assumptions C06_payment_booking_is_source.

(** [iter().sum::<u64>()] over the values of a map does not depend on the order in which the map hands
    them out: the same value, the same wrap in a release build, the same overflow panic in a debug
    build (the translation sums in the order of the association list). *)
Theorem C06_value_sums_do_not_depend_on_order :
  forall (prof : profile) (l l' : list N), Permutation.Permutation l l' -> Rust.sum_p prof l = Rust.sum_p prof l'.
Proof. exact RustFacts.sum_p_perm. Qed.
Print Assumptions C06_value_sums_do_not_depend_on_order.

(** The two housekeeping steps of the model are the source's.  NodeState::htlc_fulfilled (whole body,
    translated in state-passing style; the hash of the preimage is an opaque value [ph]) records the
    preimage only in a payment record that exists: the state it leaves abstracts to the model's
    [PFulfil] step - [pre x := pre x || ((x =? ph) && known ph)], [known], [led] and [inv] unchanged -
    and it never panics when the record's sums fit u64 and enforce_balance is off.  The issued-invoice
    flag it also sets and the boolean it returns are outside the model. *)
Theorem C06_fulfil_is_source :
  forall (prof : profile) (swarn : String.string -> bool) (gp : CommitmentPolicyGen.SimplePolicy)
         (chs : N -> pchan) (ph : N) (ns : NodePaymentsGen.NodeState) (ch preimage vid : N),
    CommitmentPolicyGen.SimplePolicy_enforce_balance gp = false ->
    (forall p, Rust.map_get (NodePaymentsGen.NodeState_payments ns) ph = Some p ->
               sum_N (Rust.map_values (NodePaymentsGen.RoutedPayment_incoming p)) <= U64MAX /\
               sum_N (Rust.map_values (NodePaymentsGen.RoutedPayment_outgoing p)) <= U64MAX) ->
    exists ns' b,
      NodePaymentsGen.gen_NodeState_htlc_fulfilled prof swarn gp ph ns ch preimage vid = Val (Rust.OkR (ns', b)) /\
      (forall x, pre (NodePaymentsGenProofs.abs_node chs ns') x =
                 pre (NodePaymentsGenProofs.abs_node chs ns) x
                 || ((x =? ph) && known (NodePaymentsGenProofs.abs_node chs ns) ph)) /\
      (forall x, known (NodePaymentsGenProofs.abs_node chs ns') x = known (NodePaymentsGenProofs.abs_node chs ns) x) /\
      (forall x c, led (NodePaymentsGenProofs.abs_node chs ns') x c = led (NodePaymentsGenProofs.abs_node chs ns) x c) /\
      (forall x, inv (NodePaymentsGenProofs.abs_node chs ns') x = inv (NodePaymentsGenProofs.abs_node chs ns) x).
Proof.
  intros prof swarn gp chs ph ns ch preimage vid Henf Hfit.
  destruct (NodePaymentsGenProofs.gen_fulfil_look prof swarn gp ph ns ch preimage vid Henf Hfit) as (ns' & b & E & Hinv & Hlook).
  exists ns', b. split; [exact E|].
  (* the record of [ph], if there is one, carries a preimage afterwards; no other look-up moves *)
  destruct (NodePaymentsGenProofs.fulfilled_fields preimage (Rust.map_get (NodePaymentsGen.NodeState_payments ns) ph))
    as (Fk & Fl & Fp).
  split; [|split; [|split]]; intros x; [| |intros c|apply NodePaymentsGenProofs.abs_node_inv, Hinv];
    destruct (NodePaymentsGenProofs.abs_node_look chs ns' x _ (Hlook x)) as (K & L & P).
  - rewrite P, (N.eqb_sym x ph). destruct (N.eqb_spec ph x) as [Ex|_]; [subst x; apply Fp | symmetry; apply orb_false_r].
  - rewrite K. destruct (N.eqb_spec ph x) as [Ex|_]; [subst x; apply Fk | reflexivity].
  - rewrite L. destruct (N.eqb_spec ph x) as [Ex|_]; [subst x; apply Fl | reflexivity].
Qed.
Print Assumptions C06_fulfil_is_source.

(** The pruning decision of the heartbeat: NodeState::is_forwarded_payment_prunable (translated) says
    "prune" for a record exactly when the model's [prunable] holds AND there is no issued invoice for
    the hash - the model does not have issued invoices.  (prune_forwarded_payments, which applies the
    decision with `retain`, is the subject of C06_prune_step_is_source.) *)
Theorem C06_prune_is_source :
  forall (nch : nat) (prof : profile) (chs : N -> pchan) (ns : NodePaymentsGen.NodeState) (h : N)
         (p : NodePaymentsGen.RoutedPayment),
    NodePaymentsGenProofs.wf_node nch ns ->
    Rust.map_get (NodePaymentsGen.NodeState_payments ns) h = Some p ->
    sum_N (Rust.map_values (NodePaymentsGen.RoutedPayment_incoming p)) <= U64MAX ->
    sum_N (Rust.map_values (NodePaymentsGen.RoutedPayment_outgoing p)) <= U64MAX ->
    NodePaymentsGen.gen_NodeState_is_forwarded_payment_prunable prof h
      (NodePaymentsGen.NodeState_invoices ns) (NodePaymentsGen.NodeState_issued_invoices ns) p =
    Val (prunable nch (NodePaymentsGenProofs.abs_node chs ns) h
         && Rust.is_none_of (Rust.map_get (NodePaymentsGen.NodeState_issued_invoices ns) h)).
Proof. exact NodePaymentsGenProofs.gen_prunable_is_model. Qed.
Print Assumptions C06_prune_is_source.

(** The booking of a whole commitment is the source's.  NodeState::apply_payments (whole body,
    translated in state-passing style: the entry API, the issued-invoice marking, the dummy preimage
    under enforce_balance, the CLTV bounds read off the commitment with filter / map / min / max, and
    RoutedPayment::apply for every hash) never panics and leaves a state whose abstraction is the
    model's [apply_payments]: [known h := true] and [led h ch := (in_val, out_val)] for every hash of
    the summaries, invoices and preimages untouched - for every order [ord] in which the hash set is
    visited (twice).  Stated for summaries that hold what the model computes, for hashes without an
    issued invoice and with enforce_balance off: the issued-invoice bookkeeping (and the register) is
    outside the model, and under these premises that part of the code does nothing. *)
Theorem C06_payment_booking_is_apply_payments :
  forall (prof : profile) (swarn : String.string -> bool) (gp : CommitmentPolicyGen.SimplePolicy)
         (ord : list N -> list N) (dp : N) (chs : N -> pchan) (ns : NodePaymentsGen.NodeState) (ch : N)
         (im om : list (N * N)) (bd : NodePaymentsGen.BalanceDelta) (vid : N)
         (ci : option CommitmentPolicyGen.CommitmentInfo2) (nh nc : option content),
    (forall l, Permutation.Permutation (ord l) l) ->
    CommitmentPolicyGen.SimplePolicy_enforce_balance gp = false ->
    let hashes := Rust.set_extend (Rust.set_extend [] (Rust.map_keys im)) (Rust.map_keys om) in
    (forall h, In h hashes -> Rust.map_get (NodePaymentsGen.NodeState_issued_invoices ns) h = None) ->
    (forall h, hget im h = in_val (chs ch) nh nc h) ->
    (forall h, hget om h = out_val (chs ch) nh nc h) ->
    (forall h, In h hashes <-> In h (sum_keys (chs ch) nh nc)) ->
    exists ns',
      NodePaymentsGen.gen_NodeState_apply_payments prof swarn gp ord dp ns ch im om bd vid ci = Val (Rust.OkR ns') /\
      let s' := apply_payments (NodePaymentsGenProofs.abs_node chs ns) ch nh nc in
      (forall x, known (NodePaymentsGenProofs.abs_node chs ns') x = known s' x) /\
      (forall x c, led (NodePaymentsGenProofs.abs_node chs ns') x c = led s' x c) /\
      (forall x, inv (NodePaymentsGenProofs.abs_node chs ns') x = inv s' x) /\
      (forall x, pre (NodePaymentsGenProofs.abs_node chs ns') x = pre s' x).
Proof.
  intros prof swarn gp ord dp chs ns ch im om bd vid ci nh nc Hord Henf hashes Hiss Hi Ho Hk.
  destruct (NodePaymentsGenProofs.gen_apply_payments_look prof swarn gp ord dp ns ch im om bd vid ci Hord Henf Hiss)
    as (ns' & E & Hinv & Hlook).
  exists ns'. split; [exact E|]. fold hashes in Hlook.
  destruct (apply_fields (NodePaymentsGenProofs.abs_node chs ns) ch nh nc) as (Ei & _ & Ep).
  assert (Hex : forall x, existsb (N.eqb x) (sum_keys (chs ch) nh nc) = existsb (N.eqb x) hashes)
    by (intros x; apply RustFacts.existsb_same; intros h; symmetry; apply Hk).
  cbv zeta. split; [|split; [|split]]; intros x; [|intros c| |];
    destruct (NodePaymentsGenProofs.abs_node_look chs ns' x _ (Hlook x)) as (K & L & P).
  - rewrite K, apply_known, Hex. destruct (existsb (N.eqb x) hashes); reflexivity.
  - rewrite L, apply_led, Hex. cbn [NodePaymentsGenProofs.abs_node chans].
    destruct (existsb (N.eqb x) hashes); cbn [andb]; [|reflexivity].
    rewrite (proj1 (NodePaymentsGenProofs.booked_fields ch im om ci x _)). unfold upd, summary.
    rewrite <- Hi, <- Ho, !NodePaymentsGenProofs.hget_get0. destruct (c =? ch); reflexivity.
  - rewrite Ei. apply NodePaymentsGenProofs.abs_node_inv, Hinv.
  - rewrite P, Ep. destruct (existsb (N.eqb x) hashes); [apply NodePaymentsGenProofs.booked_fields | reflexivity].
Qed.
Print Assumptions C06_payment_booking_is_apply_payments.

From VLS Require Gen.PaymentSummariesGen Proofs.PaymentSummariesGenProofs.

(** The per-hash totals are the source's.  EnforcementState::summarize_payments (translated: a loop
    over the HTLC slice with `entry(hash).and_modify(..).or_insert(value)` (value added to the entry), the addition in
    the arithmetic of the build profile) never panics on a list whose values sum within u64 and returns
    the map [summ l], which holds for every hash the total of the HTLCs of the list that carry it - the
    [c_out] / [c_in] maps of the model's [content] (abs_h / abs_c below). *)
Theorem C06_summarize_is_source :
  forall (prof : profile) (l : list CommitmentPolicyGen.HTLCInfo2),
    PaymentSummariesGenProofs.list_fits l = true ->
    PaymentSummariesGen.gen_EnforcementState_summarize_payments prof l =
      Val (Rust.OkR (PaymentSummariesGenProofs.summ l)) /\
    (forall h, hget (PaymentSummariesGenProofs.summ l) h = PaymentSummariesGenProofs.total_of l h) /\
    (forall h, In h (Rust.map_keys (PaymentSummariesGenProofs.summ l)) <->
               In h (map CommitmentPolicyGen.HTLCInfo2_payment_hash l)).
Proof.
  intros prof l H. split; [apply PaymentSummariesGenProofs.gen_summarize_is_summ; exact H|].
  split; [apply PaymentSummariesGenProofs.summ_total | apply PaymentSummariesGenProofs.summ_keys].
Qed.
Print Assumptions C06_summarize_is_source.

(** The summaries are the source's.  EnforcementState::incoming_payments_summary and ::payments_summary
    (whole bodies, translated: `new.or(current.as_ref())`, `.map(|h| &h.received_htlcs)`,
    `.map(|h| Self::summarize_payments(h)).unwrap_or_else(|| Map::new())`, `retain`, the consuming
    `for (k, v) in counterparty_summary` with `entry(k).and_modify(..)[.or_insert(v)]` (the entry set to the min / max of itself and v)
    and the `or_insert(0)` loops over the current commitments) never panic and return maps that hold
    exactly the model's [in_val] / [out_val] on exactly the model's [in_keys] / [out_keys]; the hash set
    NodeState::validate_payments / apply_payments build from them is the model's [sum_keys] - the premises
    of C06_payment_check_is_validate_payments and C06_payment_booking_is_apply_payments.  For every order
    [pord] in which the counterparty map is consumed (a hashbrown map: the order is unspecified), both
    build profiles, and HTLC lists whose values sum within u64.  The model's [content] of a commitment is
    [abs_h] (holder: offered = outgoing) / [abs_c] (counterparty: received = outgoing) of the source's
    CommitmentInfo2. *)
Theorem C06_summaries_are_source :
  forall (prof : profile) (pord : list (N * N) -> list (N * N))
         (ge : PaymentSummariesGen.EnforcementState)
         (nht nct : option CommitmentPolicyGen.CommitmentInfo2),
    (forall l, Permutation.Permutation (pord l) l) ->
    PaymentSummariesGenProofs.info_fits nht = true ->
    PaymentSummariesGenProofs.info_fits nct = true ->
    PaymentSummariesGenProofs.info_fits (PaymentSummariesGen.EnforcementState_current_holder_commit_info ge) = true ->
    PaymentSummariesGenProofs.info_fits (PaymentSummariesGen.EnforcementState_current_counterparty_commit_info ge) = true ->
    let p := PaymentSummariesGenProofs.abs_pchan ge in
    let nh := option_map PaymentSummariesGenProofs.abs_h nht in
    let nc := option_map PaymentSummariesGenProofs.abs_c nct in
    exists im om,
      PaymentSummariesGen.gen_EnforcementState_incoming_payments_summary prof pord ge nht nct = Val (Rust.OkR im) /\
      PaymentSummariesGen.gen_EnforcementState_payments_summary prof pord ge nht nct = Val (Rust.OkR om) /\
      (forall h, hget im h = in_val p nh nc h) /\
      (forall h, hget om h = out_val p nh nc h) /\
      (forall h, In h (Rust.map_keys im) <-> In h (in_keys p nh nc)) /\
      (forall h, In h (Rust.map_keys om) <-> In h (out_keys p nh nc)) /\
      (forall h, In h (Rust.set_extend (Rust.set_extend [] (Rust.map_keys im)) (Rust.map_keys om)) <->
                 In h (sum_keys p nh nc)).
Proof.
  intros prof pord ge nht nct Hord F1 F2 F3 F4 p nh nc.
  destruct (PaymentSummariesGenProofs.gen_in_summary_is_model prof pord ge nht nct Hord F1 F2 F3 F4) as (im & Ei & Vi & Ki).
  destruct (PaymentSummariesGenProofs.gen_out_summary_is_model prof pord ge nht nct Hord F1 F2 F3 F4) as (om & Eo & Vo & Ko).
  exists im, om. repeat split; try assumption; try apply Vi; try apply Vo; try apply Ki; try apply Ko;
    rewrite !RustFacts.set_extend_in; unfold sum_keys; rewrite in_app_iff.
  - intros [[[]|H]|H]; [left; apply Ki | right; apply Ko]; exact H.
  - intros [H|H]; [left; right; apply Ki | right; apply Ko]; exact H.
Qed.
Print Assumptions C06_summaries_are_source.

(** The payment-record part of the heartbeat is the source's.  NodeState::prune_forwarded_payments
    (whole body, translated in state-passing style: `let payments = &mut self.payments;`, the shared
    borrows of the two invoice maps, `payments.retain(|hash, payment| { .. })` with a block closure
    that calls is_forwarded_payment_prunable and raises the captured flag `modified` - map_retain_st
    of Base/Rust.v) never panics on a well-formed state whose records fit u64; it returns
    "some record was dropped", leaves both invoice maps alone, and the state it leaves abstracts to:
    [known] and [pre] restricted to the hashes that are NOT dropped, [led] and [inv] unchanged (a
    dropped record carried nothing on any channel).  Dropped means the model's [prunable] AND no
    issued invoice for the hash ([pruned]; the model does not have issued invoices, as in
    C06_prune_is_source).  Last conjunct: when no prunable record has an issued invoice this is
    exactly the model's PHeartbeat step.  The entries are visited in the order of the association list
    that represents the map; the state is universally quantified, so every visiting order of the
    hash map is covered. *)
Theorem C06_prune_step_is_source :
  forall (nch : nat) (mf mp : N) (prof : profile) (chs : N -> pchan) (ns : NodePaymentsGen.NodeState),
    NodePaymentsGenProofs.wf_node nch ns ->
    NoDup (Rust.map_keys (NodePaymentsGen.NodeState_payments ns)) ->
    (forall h p, Rust.map_get (NodePaymentsGen.NodeState_payments ns) h = Some p ->
                 sum_N (Rust.map_values (NodePaymentsGen.RoutedPayment_incoming p)) <= U64MAX /\
                 sum_N (Rust.map_values (NodePaymentsGen.RoutedPayment_outgoing p)) <= U64MAX) ->
    let s := NodePaymentsGenProofs.abs_node chs ns in
    let dropped := fun h => prunable nch s h
                            && Rust.is_none_of (Rust.map_get (NodePaymentsGen.NodeState_issued_invoices ns) h) in
    exists ns',
      NodePaymentsGen.gen_NodeState_prune_forwarded_payments prof ns =
        Val (Rust.OkR (ns', existsb dropped (Rust.map_keys (NodePaymentsGen.NodeState_payments ns)))) /\
      (forall x, known (NodePaymentsGenProofs.abs_node chs ns') x = known s x && negb (dropped x)) /\
      (forall x, pre (NodePaymentsGenProofs.abs_node chs ns') x = pre s x && negb (dropped x)) /\
      (forall x c, led (NodePaymentsGenProofs.abs_node chs ns') x c = led s x c) /\
      (forall x, inv (NodePaymentsGenProofs.abs_node chs ns') x = inv s x) /\
      NodePaymentsGen.NodeState_invoices ns' = NodePaymentsGen.NodeState_invoices ns /\
      NodePaymentsGen.NodeState_issued_invoices ns' = NodePaymentsGen.NodeState_issued_invoices ns /\
      ((forall x, known s x = true -> prunable nch s x = true ->
                  Rust.map_get (NodePaymentsGen.NodeState_issued_invoices ns) x = None) ->
       let s' := fst (pstep nch mf mp s PHeartbeat) in
       (forall x, known (NodePaymentsGenProofs.abs_node chs ns') x = known s' x) /\
       (forall x, pre (NodePaymentsGenProofs.abs_node chs ns') x = pre s' x) /\
       (forall x c, led (NodePaymentsGenProofs.abs_node chs ns') x c = led s' x c) /\
       (forall x, inv (NodePaymentsGenProofs.abs_node chs ns') x = inv s' x)).
Proof.
  intros nch mf mp prof chs ns Hwf ND Hfit s dropped.
  eexists. split; [apply (NodePaymentsGenProofs.gen_prune_eq nch prof chs ns Hwf ND Hfit)|].
  pose proof (fun x => NodePaymentsGenProofs.abs_pruned nch chs ns x Hwf) as A. cbv zeta in A. fold s in A.
  repeat (split; [intros; apply A || reflexivity|]).
  (* without issued invoices among the prunable records, dropped = prunable on the known hashes: the model's heartbeat *)
  intros Hiss. cbn [pstep fst known pre led inv].
  assert (Hq : forall x, known s x = true -> dropped x = prunable nch s x).
  { intros x Hx. unfold dropped. destruct (prunable nch s x) eqn:Q; [|reflexivity]. rewrite (Hiss x Hx Q). reflexivity. }
  split; [|split; [|split; [intros; apply A | reflexivity]]]; intros x; [rewrite (proj1 (A x)) | rewrite (proj1 (proj2 (A x)))].
  - destruct (known s x) eqn:Hx; [rewrite <- (Hq x Hx)|]; reflexivity.
  - destruct (pre s x) eqn:Hx; [|reflexivity]. rewrite <- (Hq x (NodePaymentsGenProofs.abs_pre_known chs ns x Hx)). reflexivity.
Qed.
Print Assumptions C06_prune_step_is_source.
