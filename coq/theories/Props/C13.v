(** C13 — the chain tracker follows only validated blocks and rejects atomically.
    The model ([Model/Tracker.v], variant [fixed]) is the repaired [ChainTracker]: the header window is
    popped after validation, and a refused streamed block drops every decode state. *)
From VLS Require Import Base.U64 Model.Tracker Model.TrackerCheck Proofs.TrackerProofs.

(** For every configuration, every start state and every sequence of add / remove / chunk
    requests: whenever a request is accepted, the block it adds (or removes) links to the
    previous tip (resp. to the header it retreats to), meets its proof-of-work target, obeys
    the retarget rules at that height, and -- unless the previous filter header is all zero
    or the policy filter downgrades the tag -- its proof verified against the watches and at
    least half of the trusted oracles attested ([block_valid]); the tip, height and window
    move by exactly that block; a removal retreats to the remembered parent (or, beyond the
    window, only when deep reorgs are allowed); chunks move nothing; a restart from the store
    moves nothing either, except that a tracker still at height 0 on a network with a
    compiled-in checkpoint is fast-forwarded to that checkpoint. *)
Theorem C13_advance_only_valid :
  forall (c : cfg) (s0 : tstate) (rs : list req),
    Forall (fun '(s, r, s', res) => res = Ok -> accepted_ok c s r s') (steps fixed c s0 rs).
Proof.
  intros c s0 rs. apply steps_forall. intros s r s' res H ->. exact (step_ok_valid _ _ _ _ H).
Qed.
Print Assumptions C13_advance_only_valid.

(** With a filter that does not downgrade policy-chain-validated, the only way past the
    proof is the documented one: a previous header recorded without a filter header. *)
Theorem C13_proof_or_documented_bypass :
  forall (c : cfg) (ht : N) (prev hd : headers) (p : proofinfo) (is_remove : bool),
    warn c = false -> block_valid c ht prev hd p is_remove ->
    snd prev = 0 \/ (pok p is_remove = true /\ half_attesting c p).
Proof.
  intros c ht prev hd p r Hw (_ & _ & _ & [H|[H|H]]); [left; exact H | congruence | right; exact H].
Qed.
Print Assumptions C13_proof_or_documented_bypass.

(** The quorum counts trusted oracles that attest, not attestations: it depends only on the
    set of attesting keys (repeating one oracle's attestation cannot raise it), and it never
    exceeds the number of trusted oracles. *)
Theorem C13_quorum_counts_distinct_oracles :
  forall (c : cfg) (p p' : proofinfo),
    (forall k, In k (attesters p) <-> In k (attesters p')) ->
    key_matches c p = key_matches c p' /\ key_matches c p <= N.of_nat (length (trusted c)).
Proof.
  intros c p p' H. split; [apply key_matches_set; exact H | apply key_matches_le_trusted].
Qed.
Print Assumptions C13_quorum_counts_distinct_oracles.

(** A refused request leaves tip, height, remembered headers, watches and monitor states
    exactly as before ([view]); the whole state is the one before the request, minus the
    block stream that belonged to a refused streamed request. *)
Theorem C13_reject_atomic :
  forall (c : cfg) (s0 : tstate) (rs : list req),
    Forall (fun '(s, r, s', res) =>
              forall e, res = Err e -> view s' = view s /\ s' = settled r s)
           (steps fixed c s0 rs).
Proof. intros c s0 rs. apply history_err_atomic. Qed.
Print Assumptions C13_reject_atomic.

(** ... so a later correct request still succeeds: after any refusal in any history, a
    correct compact add, a correct compact remove, and a correct streamed add are accepted. *)
Theorem C13_later_request_succeeds :
  forall (c : cfg) (s0 : tstate) (rs : list req),
    Forall (fun '(s, r, s', res) => forall e, res = Err e -> later_ok c s r s')
           (steps fixed c s0 rs).
Proof.
  intros c s0 rs. apply steps_forall. intros s r s' res H e ->. exact (step_later_ok _ _ _ _ _ H).
Qed.
Print Assumptions C13_later_request_succeeds.

(** In every history the listeners hold a block decode state only while the tracker itself
    is in the middle of a stream (so the first chunk of a block never meets a stale one). *)
Theorem C13_no_stale_decode :
  forall (c : cfg) (rs : list req) (s0 : tstate), clean s0 -> clean (run fixed c s0 rs).
Proof. intros c. apply run_invariant. intros s r. apply step_clean. Qed.
Print Assumptions C13_no_stale_decode.

(** In every history the remembered headers stay a hash-linked chain below the tip, at most
    MAX_REORG_SIZE long. *)
Theorem C13_window_linked :
  forall (c : cfg) (rs : list req) (s0 : tstate), window_ok s0 -> window_ok (run fixed c s0 rs).
Proof. intros c. apply run_invariant. intros s r. apply step_window_ok. Qed.
Print Assumptions C13_window_linked.

(** Non-vacuity: a concrete history with accepted and refused requests of every kind *)
Definition bits0 : N := 545259519.   (* 0x207fffff *)
Definition hd (k : N) : hdr := mkhdr k (k - 1) true bits0 0.
Definition cfg0 : cfg := mkcfg Regtest [1; 2; 3] false false Debug None.
Definition st0 : tstate :=
  mkts [(hd 9, 9); (hd 8, 8)] (hd 10, 10) 10 [mkslot 1 [1] [] [] 1] None false.
Definition good (t : ptype) (fh : N) (d : list N * list N * N) : proofinfo :=
  mkproof t (Some fh) true true [1; 3] (Some [d]).
Definition hist0 : list req :=
  [ Add (hd 11) (good PFilter 11 ([5], [], 2));                         (* accepted *)
    Remove (hd 10, 10) (mkproof PFilter (Some 11) false false [1; 3] (Some [([5], [], 1)]));
                                                                        (* proof for another block *)
    Remove (hd 10, 10) (good PFilter 11 ([5], [], 1));                  (* the correct removal *)
    Add (mkhdr 11 10 false bits0 0) (good PFilter 11 ([], [], 2));      (* bad proof of work *)
    Add (mkhdr 11 10 true 541065215 0) (good PFilter 11 ([], [], 2));   (* other bits off the boundary *)
    Chunk 12 true true true [1];
    Add (mkhdr 12 10 true bits0 0) (mkproof PExternal (Some 12) true true [1] (Some [([], [], 2)]));
                                                                        (* one of three trusted oracles *)
    Chunk 12 true true true [1];
    Add (mkhdr 12 10 true bits0 0) (good PExternal 12 ([], [], 2)) ].   (* the correct streamed add *)

Example C13_nonvacuous :
  map fst (trace fixed cfg0 st0 hist0) = [0; 6; 0; 3; 1; 0; 6; 0; 0] /\
  view_of (run fixed cfg0 st0 hist0) =
    (11, (12, 12), [(10, 10); (9, 9); (8, 8)], [(1, [1], [], [], 2)]) /\
  (* the hypotheses of [later_ok] are met by the requests that follow the refusals *)
  correct_remove cfg0 (run fixed cfg0 st0 (firstn 1 hist0)) (hd 10, 10) (good PFilter 11 ([5], [], 1)) /\
  correct_add cfg0 (run fixed cfg0 st0 (firstn 6 hist0)) (mkhdr 12 10 true bits0 0) (good PExternal 12 ([], [], 2)).
Proof.
  split; [vm_compute; reflexivity|]. split; [vm_compute; reflexivity|].
  split.
  - unfold correct_remove. vm_compute. repeat split; try congruence; try lia.
  - unfold correct_add. vm_compute. repeat split; try congruence; try lia. exists 12. reflexivity.
Qed.

(** one of three trusted oracles, its attestation repeated three times (plus an untrusted
    oracle): refused on the way up and on the way down; two distinct trusted oracles pass *)
Example C13_repeated_attestation_refused :
  let rep := mkproof PFilter (Some 11) true true [1; 1; 1; 7] (Some [([], [], 2)]) in
  let two := mkproof PFilter (Some 11) true true [3; 1] (Some [([], [], 2)]) in
  key_matches cfg0 rep = 1 /\ required_majority cfg0 = 2 /\
  step fixed cfg0 st0 (Add (hd 11) rep) = (st0, Err InvalidProof) /\
  snd (step fixed cfg0 st0 (Add (hd 11) two)) = Ok /\
  (let s1 := fst (step fixed cfg0 st0 (Add (hd 11) two)) in
   step fixed cfg0 s1 (Remove (hd 10, 10) rep) = (s1, Err InvalidProof) /\
   snd (step fixed cfg0 s1 (Remove (hd 10, 10) two)) = Ok).
Proof. vm_compute. repeat split. Qed.

(** a restart moves nothing once the tracker has left height 0, also on a network with a
    checkpoint; only a tracker still at height 0 is fast-forwarded to it *)
Example C13_restart_examples :
  let ck := ((mkhdr 900 899 true 436469756 0, 77), 2862000) in
  let c := mkcfg Testnet [1; 2; 3] false true Debug (Some ck) in
  let s5 := mkts [(hd 9, 9)] (hd 10, 10) 5 [mkslot 1 [1] [4] [] 3] (Some (12, true)) true in
  let s0 := mkts [] (hd 10, 10) 0 [mkslot 1 [1] [] [] 3] None false in
  view (fst (step fixed c s5 (Restart [3]))) = view s5 /\
  quiet (fst (step fixed c s5 (Restart [3]))) /\
  view (fst (step fixed c s0 (Restart [3]))) = ([], fst ck, 2862000, [mkslot 1 [1] [] [] 3]) /\
  view (fst (step fixed cfg0 s0 (Restart [3]))) = view s0.
Proof. vm_compute. repeat split. Qed.

(** the retarget window at an interval boundary: same bits and a halved target pass, an
    eighth does not, and nothing passes above the chain maximum *)
Example C13_retarget_examples :
  let c := mkcfg Regtest [] false false Debug None in
  chain_rule c 2015 (mkhdr 1 0 true 520159231 0) (mkhdr 2 1 true 520159231 0) = ROk /\
  chain_rule c 2015 (mkhdr 1 0 true 520159231 0) (mkhdr 2 1 true 511704960 0) = ROk /\
  chain_rule c 2015 (mkhdr 1 0 true 520159231 0) (mkhdr 2 1 true 505413600 0) = RErr InvalidChain /\
  chain_rule c 2015 (mkhdr 1 0 true bits0 0) (mkhdr 2 1 true 553713663 0) = RErr InvalidBlock /\
  chain_rule c 2014 (mkhdr 1 0 true 520159231 0) (mkhdr 2 1 true 511704960 0) = RErr InvalidChain.
Proof. vm_compute. repeat split. Qed.

(** [remove_block] popped the window before validating: a removal refused for its proof loses
    a remembered header, and the correct removal that follows is refused (InvalidChain). *)
Example C13_old_remove_refuted :
  exists (c : cfg) (s : tstate) (prev : headers) (bad good : proofinfo) (s' : tstate) (e : err),
    step (mkvar true true) c s (Remove prev bad) = (s', Err e) /\
    view s' <> view s /\
    pty good = PFilter /\ correct_remove c s prev good /\
    snd (step (mkvar true true) c s' (Remove prev good)) = Err InvalidChain.
Proof.
  exists cfg0, (run fixed cfg0 st0 (firstn 1 hist0)), (hd 10, 10),
         (mkproof PFilter (Some 11) false false [1; 3] (Some [([5], [], 1)])),
         (good PFilter 11 ([5], [], 1)).
  eexists. exists InvalidProof.
  split; [vm_compute; reflexivity|].
  split; [vm_compute; congruence|].
  split; [reflexivity|].
  split; [unfold correct_remove; vm_compute; repeat split; try congruence; try lia|].
  vm_compute. reflexivity.
Qed.

(** a refused streamed block left the listeners' decode state behind: the stream of the next
    (correct) block panics at its first chunk. *)
Example C13_old_streamed_refuted :
  exists (c : cfg) (s : tstate) (h : hdr) (bad good : proofinfo) (s1 s2 : tstate) (e : err),
    quiet s /\
    step (mkvar false false) c s (Chunk (hid h) true true true [1]) = (s1, Ok) /\
    step (mkvar false false) c s1 (Add h bad) = (s2, Err e) /\
    pty good = PExternal /\ correct_add c s h good /\
    snd (step (mkvar false false) c s2 (Chunk (hid h) true true true [1])) = Abort.
Proof.
  exists cfg0, st0, (hd 11),
         (mkproof PExternal (Some 11) true true [1] (Some [([], [], 2)])),
         (good PExternal 11 ([], [], 2)).
  eexists. eexists. exists InvalidProof.
  split; [split; reflexivity|].
  split; [vm_compute; reflexivity|].
  split; [vm_compute; reflexivity|].
  split; [reflexivity|].
  split; [unfold correct_add; vm_compute; repeat split; try congruence; try lia; exists 11; reflexivity|].
  vm_compute. reflexivity.
Qed.

Check C13_advance_only_valid.
Check C13_reject_atomic.
Check C13_later_request_succeeds.
