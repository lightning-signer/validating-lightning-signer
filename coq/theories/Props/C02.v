(** C02 — no holder commitment is both signed for broadcast and revoked. *)
From VLS Require Import Base.U64 Model.Enforcement Proofs.EnforcementProofs Props.C01.
From Coq Require String.
From VLS Require Gen.EnforcementGen Gen.EnforcementRulesGen Proofs.EnforcementGenProofs
  Proofs.EnforcementRulesGenProofs Proofs.RustFacts.

(** Over every history (all request kinds, restarts anywhere, both build profiles): a number
    whose secret was disclosed is strictly below every number for which a holder signature
    was released (force-close, recovery or redundant signing) — in either order. *)
Theorem C02_signed_and_revoked_disjoint :
  forall (warn : tag -> bool) (prof : profile) (ops : list op) (k n : N) (c : content),
    c01_filter warn -> Forall wf_op ops -> short ops ->
    In k (disclosed (snd (grun warn prof (Stub, ghost0) ops))) ->
    In (n, c) (hsigned (snd (grun warn prof (Stub, ghost0) ops))) ->
    k < n.
Proof.
  intros warn prof ops k n c [W1 [W2 [W3 W4]]].
  exact (signed_not_disclosed warn prof W1 W2 W3 W4 ops k n c).
Qed.
Print Assumptions C02_signed_and_revoked_disjoint.

(** Once a holder signature has been released, no request discloses a secret that had not
    been disclosed before. *)
Theorem C02_frozen_after_signature :
  forall (warn : tag -> bool) (prof : profile) (ops : list op) (o : op) (k : N),
    c01_filter warn -> Forall wf_op ops -> wf_op o -> short (ops ++ [o]) ->
    hsigned (snd (grun warn prof (Stub, ghost0) ops)) <> [] ->
    In k (disclosed (snd (grun warn prof (Stub, ghost0) (ops ++ [o])))) ->
    In k (disclosed (snd (grun warn prof (Stub, ghost0) ops))).
Proof.
  intros warn prof ops o k [W1 [W2 [W3 W4]]].
  exact (frozen_after_signature warn prof W1 W2 W3 W4 ops o k).
Qed.
Print Assumptions C02_frozen_after_signature.

(** Non-vacuity: a history with a disclosure and then a holder signature. *)
Example C02_nonvacuous :
  let ops := [Setup; ValidateHolder 0 0 true true; Activate; ValidateHolder 1 4 true true;
              Revoke 1 true; ValidateHolder 2 5 true true; Revoke 2 true; ValidateHolder 3 6 true true;
              SignHolder 2; Revoke 3 true; GetSecret 1; Restart; Revoke 3 true] in
  Forall wf_op ops /\ short ops /\
  disclosed (snd (grun strict Release (Stub, ghost0) ops)) = [1; 1; 0] /\
  hsigned (snd (grun strict Release (Stub, ghost0) ops)) = [(2, 5)].
Proof.
  cbv zeta. split; [repeat constructor; cbv; discriminate|].
  split; [cbv; discriminate|]. vm_compute. split; reflexivity.
Qed.

(** The revocation as it was before the repair (no policy-revoke-not-closed check): with
    commitment 2 pre-validated, commitment 1 signed for broadcast and then revoked. *)
Example C02_old_revoke_refuted :
  let ops := [Setup; ValidateHolder 0 0 true true; Activate; ValidateHolder 1 4 true true;
              Revoke 1 true; ValidateHolder 2 5 true true; SignHolder 1] in
  match fst (grun strict Debug (Stub, ghost0) ops) with
  | Ready ch =>
      hsigned (snd (grun strict Debug (Stub, ghost0) ops)) = [(1, 4)] /\
      o_secret (snd (do_revoke_old strict Debug ch 2)) = Some 1
  | Stub => False
  end.
Proof. vm_compute. split; reflexivity. Qed.

(** The guard in front of a holder signature is the one in the source: Gen/EnforcementRulesGen.v holds the
    statement-by-statement translation of Validator::get_current_holder_commitment_info (provided
    method of the trait in policy/validator.rs, not overridden by the validators), which
    sign_holder_commitment_tx_phase2 asks for the content it signs.  It is exactly the head of
    [do_sign_holder]: [n + 1] (abort on overflow in a debug build), refusal with policy-other unless
    [n + 1 = next_h e] (or the filter downgrades that tag), a panic when there is no current holder
    commitment, otherwise the current content - for every state, number, filter and both profiles. *)
Theorem C02_holder_sign_guard_is_source :
  forall (prof : profile) (swarn : String.string -> bool) (fr : EnforcementGenProofs.frame) (e : estate) (n : N),
    EnforcementRulesGen.gen_get_current_holder_commitment_info prof swarn (EnforcementGenProofs.to_res fr e) n =
    match add_p prof n 1 with
    | Trap => Trap
    | Val n1 =>
        if negb (n1 =? next_h e) && perr (EnforcementRulesGenProofs.etag_filter swarn) TOther
        then Val (Rust.ErrR (EnforcementRulesGenProofs.etag_name TOther))
        else match cur_h e with
             | None => Trap
             | Some c => Val (Rust.OkR c)
             end
    end.
Proof. exact EnforcementRulesGenProofs.gen_holder_sign_guard_is_model. Qed.
Print Assumptions C02_holder_sign_guard_is_source.
