(** C03 — counterparty commitments advance only over properly revoked predecessors. *)
From VLS Require Import Base.U64 Model.Enforcement Model.Secrets
  Proofs.EnforcementProofs Proofs.CounterpartyProofs Proofs.SecretsProofs.
From VLS Require Gen.EnforcementGen Proofs.EnforcementGenProofs.
From Coq Require String.
From VLS Require Gen.EnforcementRulesGen Proofs.EnforcementRulesGenProofs Proofs.RustFacts.

Definition c03_filter (warn : tag -> bool) : Prop :=
  warn TPrevRevoked = false /\ warn TRetrySame = false /\ warn TOther = false.

(** A counterparty signature is returned only by a signing request for a number [n] such that
    every number below [n-1] has been revoked by an accepted revocation — for every history,
    both build profiles. *)
Theorem C03_sign_needs_revocations :
  forall (warn : tag -> bool) (prof : profile) (ops : list op) (o : op) (n : N) (p : point) (c : content),
    c03_filter warn -> Forall wf_op ops -> wf_op o ->
    o_cpsig (snd (gstep warn prof (grun warn prof (Stub, ghost0) ops) o)) = Some (n, p, c) ->
    (exists pl, o = SignCp n p c pl) /\
    forall j, j + 1 < n ->
      exists p', In (j, p') (cprevoked (snd (grun warn prof (Stub, ghost0) ops))).
Proof.
  intros warn prof ops o n p c [W5 [W6 W4]] Hwf Ho Hx.
  pose proof (cs_reach warn prof W5 W6 W4 ops Hwf) as HC.
  destruct (cpsig_origin warn prof W5 W6 W4 _ o n p c Ho HC Hx) as [Hn Hor].
  split; [exact Hor|]. intros j Hj. apply (c_all _ _ _ _ _ _ _ (proj2 HC) j). lia.
Qed.
Print Assumptions C03_sign_needs_revocations.

(** At every moment every signed counterparty commitment is either revoked or one of the two
    numbers [next_revoke], [next_revoke+1]: at most two unrevoked commitments carry a signature. *)
Theorem C03_at_most_two_unrevoked :
  forall (warn : tag -> bool) (prof : profile) (ops : list op) (ch : chan) (n : N) (p : point) (c : content),
    c03_filter warn -> Forall wf_op ops ->
    fst (grun warn prof (Stub, ghost0) ops) = Ready ch ->
    In (n, p, c) (cpsigned (snd (grun warn prof (Stub, ghost0) ops))) ->
    (exists p', In (n, p') (cprevoked (snd (grun warn prof (Stub, ghost0) ops)))) \/
    (next_r (mem ch) <= n /\ n < next_r (mem ch) + 2).
Proof.
  intros warn prof ops ch n p c [W5 [W6 W4]].
  exact (window warn prof W5 W6 W4 ops ch n p c).
Qed.
Print Assumptions C03_at_most_two_unrevoked.

(** An accepted revocation of [r] carried a secret whose public point is a point that was
    signed for [r] (and by [C03_resign_same] there is only one such point). *)
Theorem C03_revocation_matches_signed_point :
  forall (warn : tag -> bool) (prof : profile) (ops : list op) (r : N) (p : point),
    c03_filter warn -> Forall wf_op ops ->
    In (r, p) (cprevoked (snd (grun warn prof (Stub, ghost0) ops))) ->
    exists c, In (r, p, c) (cpsigned (snd (grun warn prof (Stub, ghost0) ops))).
Proof.
  intros warn prof ops r p [W5 [W6 W4]] Hwf Hin.
  exact (proj2 (c_rvk _ _ _ _ _ _ _ (proj2 (cs_reach warn prof W5 W6 W4 ops Hwf)) r p Hin)).
Qed.
Print Assumptions C03_revocation_matches_signed_point.

(** A number is signed again only for the identical point and content. *)
Theorem C03_resign_same :
  forall (warn : tag -> bool) (prof : profile) (ops : list op) (n : N) (p1 p2 : point) (c1 c2 : content),
    c03_filter warn -> Forall wf_op ops ->
    In (n, p1, c1) (cpsigned (snd (grun warn prof (Stub, ghost0) ops))) ->
    In (n, p2, c2) (cpsigned (snd (grun warn prof (Stub, ghost0) ops))) ->
    p1 = p2 /\ c1 = c2.
Proof.
  intros warn prof ops n p1 p2 c1 c2 [W5 [W6 W4]] Hwf.
  exact (c_fun _ _ _ _ _ _ _ (proj2 (cs_reach warn prof W5 W6 W4 ops Hwf)) n p1 c1 p2 c2).
Qed.
Print Assumptions C03_resign_same.

(** The compact store (Model/Secrets.v, VLS's CounterpartyCommitmentSecrets): a secret it
    accepts derives, under the BOLT-3 tree, every secret stored in a lower slot; and the whole
    descending sequence of a tree is accepted and retrievable (with at most 49 entries). *)
Theorem C03_store_accepts_only_consistent :
  forall (S : Type) (H : S -> S) (flip : nat -> S -> S) (eqS : S -> S -> bool),
    (forall a b, eqS a b = true -> a = b) ->
    forall (st : store S) (idx : N) (s : S) (st' : store S) (i : nat) (o : S) (oi : N),
      provide_secret S H flip eqS st idx s = (st', true) ->
      (i < place_secret idx)%nat -> nth_error st i = Some (o, oi) ->
      derive_secret S H flip s (place_secret idx) oi = o.
Proof. exact provide_accepted_derives. Qed.
Print Assumptions C03_store_accepts_only_consistent.

Theorem C03_store_keeps_the_tree :
  forall (S : Type) (H : S -> S) (flip : nat -> S -> S) (eqS : S -> S -> bool),
    (forall s, eqS s s = true) ->
    forall (seed : S) (n : nat), N.of_nat n <= TWO48 ->
      exists st, feed_first S H flip eqS seed n = (st, true) /\ (length st <= 49)%nat /\
        forall c, (c < n)%nat ->
          get_secret S H flip st (idx_of_commit c) =
          @Found S (build_commitment_secret S H flip seed (idx_of_commit c)).
Proof. exact feed_first_ok. Qed.
Print Assumptions C03_store_keeps_the_tree.

(** Non-vacuity: a history with two accepted revocations, a refused one (wrong point), a
    retry with identical content and a refused retry with changed content. *)
Example C03_nonvacuous :
  let ops := [Setup; SignCp 0 1000 0 true; SignCp 1 1001 4 true; SignCp 1 1001 4 true;
              SignCp 1 1001 5 true; ValidateRevocation 0 1007 7 true; ValidateRevocation 0 1000 0 true;
              SignCp 3 1003 4 true; SignCp 2 1002 5 true; ValidateRevocation 1 1001 1 true;
              Restart; SignCp 3 1003 6 true] in
  Forall wf_op ops /\
  cpsigned (snd (grun strict Debug (Stub, ghost0) ops)) =
    [(3, 1003, 6); (2, 1002, 5); (1, 1001, 4); (1, 1001, 4); (0, 1000, 0)] /\
  cprevoked (snd (grun strict Debug (Stub, ghost0) ops)) = [(1, 1001); (0, 1000)].
Proof.
  cbv zeta. split; [repeat constructor; cbv; discriminate|]. vm_compute. split; reflexivity.
Qed.

(** The two state updates the counterparty side of the model rests on are the ones in the source:
    Gen/EnforcementGen.v is the statement-by-statement translation of
    [EnforcementState::set_next_counterparty_commit_num] and [::set_next_counterparty_revoke_num]
    (vls-core/src/policy/validator.rs, regenerated on every run by tools/gen_rustfn.py), and for
    counters below 2^64-1 it computes, in both build profiles, exactly the model's [set_cp_commit] /
    [set_cp_revoke] - the same panic on a zero number, the same fields moved, cleared and kept. *)
Theorem C03_commit_update_is_source :
  forall (prof : profile) (fr : EnforcementGenProofs.frame) (e : estate) (num : N) (pt : point) (c : content),
    next_c e < U64MAX ->
    EnforcementGen.gen_set_next_counterparty_commit_num prof (EnforcementGenProofs.to_res fr e) num pt c =
    match set_cp_commit e num pt c with
    | Some e' => Val (EnforcementGenProofs.to_res fr e')
    | None => Trap
    end.
Proof. exact EnforcementGenProofs.gen_set_cp_commit_is_model. Qed.
Print Assumptions C03_commit_update_is_source.

Theorem C03_revoke_update_is_source :
  forall (prof : profile) (fr : EnforcementGenProofs.frame) (e : estate) (num : N) (secs : list (N * N)),
    num < U64MAX ->
    EnforcementGen.gen_set_next_counterparty_revoke_num prof (EnforcementGenProofs.to_res fr e) num =
    match set_cp_revoke e num secs with
    | Some e' => Val (EnforcementGenProofs.to_res fr e')
    | None => Trap
    end.
Proof. exact EnforcementGenProofs.gen_set_cp_revoke_is_model. Qed.
Print Assumptions C03_revoke_update_is_source.

(** ... and so are the two look-ups behind the retry rules ("a number is signed again only for the
    identical point and content"; "an accepted revocation carries the secret of the point signed
    for that number"): [num + 2] is only evaluated when [num + 1] is not the next number. *)
Theorem C03_previous_point_lookup_is_source :
  forall (prof : profile) (fr : EnforcementGenProofs.frame) (e : estate) (num : N),
    num + 2 <= U64MAX ->
    EnforcementGen.gen_get_previous_counterparty_point prof (EnforcementGenProofs.to_res fr e) num =
    Val (prev_point_for e (num + 1) (num + 2)).
Proof. exact EnforcementGenProofs.gen_prev_point_is_model. Qed.
Print Assumptions C03_previous_point_lookup_is_source.

Theorem C03_previous_info_lookup_is_source :
  forall (prof : profile) (fr : EnforcementGenProofs.frame) (e : estate) (num : N),
    num + 2 <= U64MAX ->
    EnforcementGen.gen_get_previous_counterparty_commit_info prof (EnforcementGenProofs.to_res fr e) num =
    Val (prev_info_for e (num + 1) (num + 2)).
Proof. exact EnforcementGenProofs.gen_prev_info_is_model. Qed.
Print Assumptions C03_previous_info_lookup_is_source.

(** The decisions in front of those updates are the ones in the source as well.  Gen/EnforcementRulesGen.v is
    the statement-by-statement translation of SimpleValidator's validate_counterparty_commitment_tx
    (whole body; the answer [v] of its call of validate_commitment_tx - the model's [pol_ok] - is a
    parameter) and validate_counterparty_revocation, over the EnforcementState record of
    Gen/EnforcementGen.v and calling its look-ups.  Outcomes are compared without the tag
    ([status_of]: accepted / refused / panic); the source's filter is a function of the tag string,
    read on the names of the model's tags by [etag_filter] (TPrevRevoked =
    policy-commitment-previous-revoked, TRetrySame = policy-commitment-retry-same: one source tag each).

    Signing.  After the content verdict the source decides what [do_sign_cp] decides in front of the
    setter guards: refused when [next_r e + 1 < n] (unless policy-commitment-previous-revoked is
    downgraded), abort when [n + 1] overflows, and then [validate_cp_state e n n1 n2 pt c] - on a retry
    ([n + 1 = next_c e]) the point must be the current point and the content the current content (each
    policy-commitment-retry-same).  [n2] is arbitrary: it is read only through [prev_info_for] in the
    retry branch, where the answer does not depend on it, and the source does not compute [n + 2] there.
    Side condition [next_r e < U64MAX]: the source computes next_counterparty_revoke_num + 1 with a
    plain [+]. *)
Theorem C03_sign_window_is_source :
  forall (prof : profile) (swarn : String.string -> bool) (fr : EnforcementGenProofs.frame) (e : estate)
         (v : trap (Rust.result unit)) (n : N) (pt : point) (setup cstate : N) (c : content) (n2 : N),
    next_r e < U64MAX ->
    RustFacts.status_of
      (EnforcementRulesGen.gen_validate_counterparty_commitment_tx prof swarn v
         (EnforcementGenProofs.to_res fr e) n pt setup cstate c) =
    EnforcementRulesGenProofs.after_content v
      (if (next_r e + 1 <? n) && perr (EnforcementRulesGenProofs.etag_filter swarn) TPrevRevoked
       then Some false
       else match add_p prof n 1 with
            | Trap => None
            | Val n1 => Some (validate_cp_state (EnforcementRulesGenProofs.etag_filter swarn) e n n1 n2 pt c)
            end).
Proof. exact EnforcementRulesGenProofs.gen_cp_checks_are_model. Qed.
Print Assumptions C03_sign_window_is_source.

(** Revocation.  The source decides what [do_revocation] decides up to [revocation_checks]: abort when
    [r + 1] overflows; [r + 2] is computed only when [r + 1] is not the next commitment number, and on
    its overflow the request is refused if the number check refuses and aborts otherwise; then
    [revocation_checks e r r1 r2 pt_of_secret]: [r] is the next number to revoke or the one before, and
    the point of the supplied secret is the point signed for [r].  The point of the secret is
    [point_of ctx secret] for an uninterpreted [point_of] (PublicKey::from_secret_key) - the model's
    oracle input.  No side condition. *)
Theorem C03_revocation_checks_are_source :
  forall (prof : profile) (swarn : String.string -> bool) (fr : EnforcementGenProofs.frame) (e : estate)
         (ctx : N) (point_of : N -> N -> N) (r secret : N),
    RustFacts.status_of
      (EnforcementRulesGen.gen_validate_counterparty_revocation prof swarn ctx point_of
         (EnforcementGenProofs.to_res fr e) r secret) =
    match add_p prof r 1 with
    | Trap => None
    | Val r1 =>
        match (if r1 =? next_c e then Val 0 else add_p prof r 2) with
        | Trap =>
            if negb (r =? next_r e) && negb (r1 =? next_r e)
               && perr (EnforcementRulesGenProofs.etag_filter swarn) TPrevRevoked
            then Some false else None
        | Val r2 =>
            Some (revocation_checks (EnforcementRulesGenProofs.etag_filter swarn) e r r1 r2 (point_of ctx secret))
        end
    end.
Proof. exact EnforcementRulesGenProofs.gen_revocation_checks_are_model. Qed.
Print Assumptions C03_revocation_checks_are_source.
