(** C08 — on-chain spends lose at most a bounded fee and fund only validated channels.

    Reading of the vocabulary (Model/Onchain.v): an output [funds] a channel when it carries no
    wallet path, its script is not allowlisted, and a channel of this node has it as funding
    outpoint — the branch of [validate_onchain_tx] that treats the value as going into a channel.
    An output that the wallet can spend or whose script is allowlisted counts as returned to the
    wallet / allowlisted destination whatever channel points at it
    ([C08_allowlisted_shadows_channel] shows the consequence).

    The model describes [Node::check_onchain_tx] with the repair of
    notes/fixes/C08-fee-velocity-msat-no-wrap.patch (value * 1000 saturates);
    [C08_msat_wrap_refuted] keeps the witness against the code as found. *)
From VLS Require Import Base.U64 Model.Velocity Model.Onchain Proofs.OnchainProofs Props.C12.
From VLS Require Model.CommitmentPolicy.
From Coq Require Import List.

(** For every transaction (any number of inputs and outputs, any values — amounts are unbounded
    naturals with the code's checked / plain operations modelled, so every u64 overflow candidate
    is inside the quantifier), every classification of its outputs by the wallet and the allowlist,
    every set of channels pointing at it, every policy and every state of the fee velocity
    control: if [Node::check_onchain_tx] answers Ok under a non-permissive filter, then
    - every output is returned to the wallet, to an allowlisted script / xpub, or funds a channel
      that passed all channel checks;
    - inputs minus all outputs is exactly the non-beneficial value [nbv] (no sum overflowed);
    - [nbv] is below the fee at [max_feerate_per_kw + 1] for the weight lower bound [w];
    - every output funding a channel has the exact channel value and funding script, the channel
      is outbound, no satoshi is pushed and next_holder_commit_num = 1;
    - if any channel has an output of the transaction as funding outpoint, every input is segwit;
    - [nbv * 1000] (saturated to u64) was inserted into the fee velocity control, which approved
      it; the saturation never bites when the control has a finite limit or the weight is below 2^32. *)
Theorem C08_ok_implies :
  forall (warn : otag -> bool) (pol : opolicy) (c : vc) (now : N)
         (nc : nodecase) (nbv : N) (c1 : vc),
    (forall t, warn t = false) ->
    disable_beneficial pol = false ->
    max_feerate pol < U32MAX ->
    check_onchain warn pol c now nc = (COk nbv, c1) ->
    exists w,
      node_weight nc = Some w /\ w <> 0 /\
      Forall beneficial (n_outputs nc) /\
      sum_N (map i_value (n_prevs nc)) <= U64MAX /\
      nbv + sum_N (out_values (n_outputs nc)) = sum_N (map i_value (n_prevs nc)) /\
      nbv * 1000 + 999 < (max_feerate pol + 1) * w /\
      (forall o ch, In o (n_outputs nc) -> funds o ch -> chan_valid o ch) /\
      (any_chan (n_outputs nc) = true ->
         N.of_nat (length (n_flags nc)) = n_n_txin nc /\ Forall (fun b => b = true) (n_flags nc)) /\
      insert c now (sat_mul nbv 1000) = (c1, true) /\
      (limit c < U64MAX \/ w < two32 -> sat_mul nbv 1000 = nbv * 1000).
Proof.
  intros warn pol c now nc nbv c1 Hw Hd Hm H.
  pose proof (check_onchain_cases warn pol c now nc) as K. rewrite H in K. destruct K as (w & W & V & -> & Ok).
  pose proof (validate_ok_strict warn pol _ nbv Hw V) as F.
  cbn [to_txcase t_version_two t_base_size t_outputs t_values t_weight t_flags t_n_txin] in F.
  destruct F as (_ & _ & B & Bin & _ & Eq & W0 & R & M).
  specialize (R Hd Hm). specialize (Ok (Hw _)).
  exists w. repeat (split; [assumption|]).
  split.
  { intros o ch Hin Hf. rewrite Forall_forall in B. eapply beneficial_funds; [apply B; exact Hin | exact Hf]. }
  split; [exact M|].
  split.
  { destruct (insert c now (sat_mul nbv 1000)) as [c' ok]. cbn [fst snd] in *. subst ok. reflexivity. }
  intros [L | L].
  - apply (accepted_exact c now nbv L Ok).
  - unfold sat_mul. pose proof (rate_bounds_msat nbv _ w Hm L R). lia.
Qed.
Print Assumptions C08_ok_implies.

(** The validator alone, for an arbitrary filter: a conjunct can be missing only when its own
    tag is downgraded to a warning; the sums never overflow whatever the filter says. *)
Theorem C08_ok_per_tag :
  forall (warn : otag -> bool) (pol : opolicy) (tx : txcase) (nbv : N),
    validate_onchain warn pol tx = VOk nbv ->
    (warn T_format_standard = false -> t_version_two tx = true) /\
    (warn T_max_size = false -> t_base_size tx <= MAX_ONCHAIN_TX_SIZE) /\
    (any_chan (t_outputs tx) = true ->
       N.of_nat (length (t_flags tx)) = t_n_txin tx /\
       (warn T_non_malleable = false -> Forall (fun b => b = true) (t_flags tx))) /\
    Forall (passable warn) (t_outputs tx) /\
    unknown_idx (t_outputs tx) = [] /\
    sum_N (t_values tx) <= U64MAX /\
    sum_N (map counted (t_outputs tx)) <= U64MAX /\
    nbv + sum_N (map counted (t_outputs tx)) = sum_N (t_values tx) /\
    t_weight tx <> 0 /\
    (warn T_fee_range = false -> disable_beneficial pol = false -> max_feerate pol < U32MAX ->
       nbv * 1000 + 999 < (max_feerate pol + 1) * t_weight tx).
Proof. exact validate_ok_facts. Qed.
Print Assumptions C08_ok_per_tag.

(** Each channel check, for an arbitrary filter, on every output that funds a channel. *)
Theorem C08_funded_checked :
  forall warn pol tx nbv o ch,
    validate_onchain warn pol tx = VOk nbv -> In o (t_outputs tx) -> funds o ch ->
    chan_valid_w warn o ch.
Proof.
  intros warn pol tx nbv o ch H Hin Hf. apply validate_ok_facts in H.
  destruct H as (_ & _ & _ & P & _). rewrite Forall_forall in P.
  eapply passable_funds; [apply P; exact Hin | exact Hf].
Qed.

(** Unknown destinations.  An answer UnknownDestinations carries exactly the indices of the
    outputs nobody vouches for, in order; a transaction with such an output is never accepted;
    and when nothing else refuses, that answer is what comes back. *)
Theorem C08_unknown_exact :
  forall warn pol tx u,
    validate_onchain warn pol tx = VUnknown u -> u = unknown_idx (t_outputs tx) /\ u <> [].
Proof.
  intros warn pol tx u H. pose proof (validate_onchain_cases warn pol tx) as C. rewrite H in C.
  destruct C as [_ E]. unfold after_gates in E.
  destruct (out_loop warn (t_outputs tx) 0 0 []) as [ben unk| |] eqn:L; try discriminate.
  apply out_loop_done in L; [|apply N.le_0_l]. destruct L as (_ & _ & _ & ->). cbn [app] in E. fold (unknown_idx (t_outputs tx)) in E.
  destruct (unknown_idx (t_outputs tx)) as [|x unk]; cbn [length Nat.eqb negb] in E.
  - destruct (sum_checked (t_values tx) 0) as [sin|]; [|discriminate].
    pose proof (validate_beneficial_cases warn pol sin ben (t_weight tx)) as VB. rewrite E in VB. contradiction.
  - injection E as <-. split; [reflexivity | discriminate].
Qed.

Theorem C08_unknown_never_ok :
  forall warn pol tx,
    unknown_idx (t_outputs tx) <> [] ->
    match validate_onchain warn pol tx with
    | VOk _ => False
    | VUnknown u => u = unknown_idx (t_outputs tx)
    | VErr _ | VPanic => True
    end.
Proof.
  intros warn pol tx Hne. destruct (validate_onchain warn pol tx) as [nbv|t|u|] eqn:H; try exact I.
  - apply validate_ok_facts in H. destruct H as (_ & _ & _ & _ & U & _). contradiction.
  - apply C08_unknown_exact in H. destruct H as [H _]. exact H.
Qed.

Theorem C08_unknown_reported :
  forall warn pol tx,
    (t_version_two tx = true \/ warn T_format_standard = true) ->
    (t_base_size tx <= MAX_ONCHAIN_TX_SIZE \/ warn T_max_size = true) ->
    (any_chan (t_outputs tx) = true ->
       N.of_nat (length (t_flags tx)) = t_n_txin tx /\
       (Forall (fun b => b = true) (t_flags tx) \/ warn T_non_malleable = true)) ->
    Forall (quiet warn) (t_outputs tx) ->
    sum_N (map counted (t_outputs tx)) <= U64MAX ->
    unknown_idx (t_outputs tx) <> [] ->
    validate_onchain warn pol tx = VUnknown (unknown_idx (t_outputs tx)).
Proof.
  intros warn pol tx V S M Q B U. rewrite validate_onchain_open.
  - unfold after_gates. rewrite out_loop_quiet; [|exact Q | exact B]. cbn [app].
    unfold unknown_idx in *. destruct (unknown_idx_from 0 (t_outputs tx)); [contradiction | reflexivity].
  - split; [|split].
    + destruct V; congruence.
    + destruct S; congruence.
    + intros A. destruct (M A) as [L [F|F]]; split; congruence.
Qed.
Print Assumptions C08_unknown_reported.

(** The approver lets a transaction through only if the node's check passed, or the check
    reported exactly the unclassified outputs and the approver said yes to that very list
    (in which case the fee velocity control is untouched). *)
Theorem C08_approval_needed :
  forall warn pol approve c now nc c1,
    handle_proposed warn pol approve c now nc = (HApproved, c1) ->
    (exists nbv, check_onchain warn pol c now nc = (COk nbv, c1)) \/
    (check_onchain warn pol c now nc = (CUnknown (unknown_idx (n_outputs nc)), c1) /\
     unknown_idx (n_outputs nc) <> [] /\
     approve (unknown_idx (n_outputs nc)) = true /\ c1 = c).
Proof.
  unfold handle_proposed, handle_proposed_with. intros warn pol approve c now nc c1 H.
  pose proof (check_onchain_cases warn pol c now nc) as K.
  destruct (check_onchain warn pol c now nc) as [r c'] eqn:E.
  destruct r as [n|t|u|]; inversion H; subst.
  - left. exists n. reflexivity.
  - right. destruct K as (w & _ & V & ->). apply C08_unknown_exact in V. cbn [to_txcase t_outputs] in V.
    destruct V as [-> Hne]. destruct (approve (unknown_idx (n_outputs nc))) eqn:A; [|discriminate].
    repeat split; auto.
Qed.
Print Assumptions C08_approval_needed.

(** Explicit approvals are used once and name the transaction.  For the memorizing approver over
    a delegate that declines, in every history of [approve] calls and requests: a request is
    answered yes only if the operation immediately before it is an [approve] whose list contains
    this very transaction (identity = the whole transaction: inputs, outputs, locktime, version).
    Any request in between uses the approvals up; a transaction that merely shares outputs with
    an approved one is a different identity.  With [C08_approval_needed]: a transaction with
    unclassified outputs is signed only on such an approval. *)
Theorem C08_memo_exact_once :
  forall (pre : list mop) (tx : N),
    snd (mstep (fun _ => false) (fst (mrun (fun _ => false) [] pre)) (MAsk tx)) = Some true ->
    exists pre' txs, pre = pre' ++ [MSet txs] /\ In tx txs.
Proof.
  intros pre tx. rewrite memo_after. cbn [mstep snd]. rewrite orb_false_r.
  destruct (rev pre) as [|o r] eqn:E.
  - cbn [existsb]. discriminate.
  - assert (P : pre = rev r ++ [o]) by (rewrite <- (rev_involutive pre), E; reflexivity).
    destruct o as [txs|t]; [|cbn [existsb]; discriminate].
    intros H. inversion H as [H1]. apply existsb_exists in H1. destruct H1 as (x & Hin & Hx).
    apply N.eqb_eq in Hx. subst x. exists (rev r), txs. split; assumption.
Qed.
Print Assumptions C08_memo_exact_once.

Example C08_memo_nonvacuous :
  snd (mrun (fun _ => false) [] [MSet [7]; MAsk 7; MAsk 7; MSet [7]; MAsk 8; MAsk 7; MSet [7; 8]; MAsk 8])
    = [true; false; false; false; true].
Proof. vm_compute. reflexivity. Qed.

(** Overflow candidates: input values or counted output values summing above u64 are refused
    whatever the filter. *)
Theorem C08_overflow_refused :
  forall warn pol tx nbv,
    U64MAX < sum_N (t_values tx) \/ U64MAX < sum_N (map counted (t_outputs tx)) ->
    validate_onchain warn pol tx <> VOk nbv.
Proof.
  intros warn pol tx nbv Hov H. apply validate_ok_facts in H.
  destruct H as (_ & _ & _ & _ & _ & Bin & Bout & _). lia.
Qed.

(** Cumulative fees: for every policy (any maximum feerate, any dev flag), every spec with a
    finite fee limit and every history of on-chain requests (each followed by the signing that
    persists the node entry when it passed), other node-entry writes and restarts with
    non-decreasing times, the non-beneficial values (true values, in msat) of the accepted
    transactions inside any window no longer than the tracked interval minus one bucket sum to at
    most the limit.  This is [C12_window] for the fee control: the history is the velocity
    history whose approvals are the validated transactions. *)
Theorem C08_fee_velocity :
  forall (warn : otag -> bool) (pol : opolicy) (it : itype) (lim0 : N) (ops : list oop),
    warn T_fee_range = false ->
    let '(lim, ivl, nb) := spec_triple it lim0 in
    lim < U64MAX ->
    nondecreasing 0 (oop_times ops) = true ->
    forall t0 len : N,
      len <= (N.of_nat nb - 1) * ivl ->
      wsum (in_window t0 len) (snd (orun warn pol it lim0 ops)) <= lim.
Proof.
  intros warn pol it lim0 ops Hw.
  pose proof (orun_is_vrun warn pol it lim0 Hw) as Sim.
  pose proof (C12_window it lim0 (to_vops warn pol ops)) as H.
  destruct (spec_triple it lim0) as [[l i] n]. cbn [fst] in Sim.
  intros Hl Hnd t0 len Hlen. rewrite (Sim Hl ops).
  apply H; [exact Hl | | exact Hlen].
  apply to_vops_times. exact Hnd.
Qed.
Print Assumptions C08_fee_velocity.

Definition pol_ex : opolicy := mkOPol 333333 false.
Definition ch_ok (v : N) : chanfacts := mkChan v true 1 true 0.

(** two wallet inputs (one swept from a unilateral close), change to the wallet, two channels
    funded at once, an allowlisted script and an allowlisted xpub: accepted with fee 1000 sat,
    which lands in the current bucket of the fee control *)
Definition nc_ex : nodecase :=
  mkNode true 400 1100 2 [true; true]
         [mkIn 3000000 true; mkIn 2101000 true] [None; Some 34]
         [ mkOut 1000000 WalletPath (Some true) (Some false) false None;
           mkOut 3000000 EmptyPath (Some false) (Some false) false (Some (ch_ok 3000000));
           mkOut 1000000 EmptyPath (Some false) (Some false) false (Some (ch_ok 1000000));
           mkOut 50000 EmptyPath (Some false) (Some true) true None;
           mkOut 50000 WalletPath (Some false) (Some true) false None ].

Example C08_nonvacuous :
  let c := of_spec Daily 1000000000 in
  check_onchain strict pol_ex c 7200 nc_ex
    = (COk 1000, mkvc 7200 3600 (1000000 :: repeat 0 23) 1000000000) /\
  node_weight nc_ex = Some 1321 /\
  (forall w, node_weight nc_ex = Some w -> w < two32) /\
  unknown_idx (n_outputs nc_ex) = [].
Proof.
  split; [vm_compute; reflexivity|]. split; [vm_compute; reflexivity|].
  split; [|vm_compute; reflexivity].
  intros w H. vm_compute in H. inversion H. vm_compute. reflexivity.
Qed.

(** the same transaction with two outputs nobody vouches for: reported by index, and approved
    only on the approver's word *)
Definition nc_unknown : nodecase :=
  mkNode true 400 1100 2 [true; true]
         [mkIn 3000000 true; mkIn 2101000 true] [None; None]
         [ mkOut 1000000 EmptyPath (Some false) (Some false) false None;
           mkOut 3000000 EmptyPath (Some false) (Some false) false (Some (ch_ok 3000000));
           mkOut 1000000 EmptyPath (Some false) (Some false) false None ].

Example C08_unknown_nonvacuous :
  let c := of_spec Daily 1000000000 in
  unknown_idx (n_outputs nc_unknown) = [0; 2] /\
  fst (check_onchain strict pol_ex c 7200 nc_unknown) = CUnknown [0; 2] /\
  fst (handle_proposed strict pol_ex (fun _ => false) c 7200 nc_unknown) = HRejected /\
  handle_proposed strict pol_ex (fun u => if list_eq_dec N.eq_dec u [0; 2] then true else false) c 7200 nc_unknown
    = (HApproved, c).
Proof. vm_compute. repeat split. Qed.

(** a history in which the daily fee limit is reached exactly, across a restart *)
Definition fee_tx (sat : N) : nodecase :=
  mkNode true 60 240 1 [] [mkIn sat true] [None] [].

Example C08_fee_velocity_nonvacuous :
  let pol := mkOPol 4000000000 false in
  let ops := [OTx 1000 (fee_tx 600000); ORestart; OTx 1200 (fee_tx 400000);
              OTx 1201 (fee_tx 1); OPersist; OTx 90000 (fee_tx 1000000)] in
  nondecreasing 0 (oop_times ops) = true /\
  snd (orun strict pol Daily 1000000000 ops)
    = [(1000, 600000000); (1200, 400000000); (90000, 1000000000)] /\
  wsum (in_window 1000 82800) (snd (orun strict pol Daily 1000000000 ops)) = 1000000000.
Proof. vm_compute. repeat split. Qed.

(** [max_feerate_per_kw = u32::MAX] means "no maximum": the estimate saturates there *)
Example C08_max_feerate_u32max_is_unlimited :
  validate_onchain strict (mkOPol U32MAX false)
                   (mkTx true 60 1 [] [18446744073709551615] [] 240) = VOk 18446744073709551615.
Proof. vm_compute. reflexivity. Qed.

(** an output whose script is allowlisted is an allowlisted destination even when a channel that
    has not seen its initial commitment points at it: the channel checks belong to the branch
    that counts the value as going into a channel *)
Example C08_allowlisted_shadows_channel :
  let o := mkOut 1000000 EmptyPath (Some false) (Some true) true (Some (mkChan 5 false 0 false 7000)) in
  validate_onchain strict pol_ex (mkTx true 100 1 [true] [1001000] [o] 600) = VOk 1000 /\
  beneficial o /\ forall ch, ~ funds o ch.
Proof.
  split; [vm_compute; reflexivity|]. split; [left; reflexivity|].
  intros ch (_ & A & _). discriminate.
Qed.

(** a push below one satoshi is not a push for this check (push_value_msat / 1000 = 0) *)
Example C08_sub_satoshi_push :
  validate_onchain strict pol_ex
    (mkTx true 100 1 [true] [1001000]
          [mkOut 1000000 EmptyPath (Some false) (Some false) false (Some (mkChan 1000000 true 1 true 999))]
          600) = VOk 1000.
Proof. vm_compute. reflexivity. Qed.

(** The estimator as found (before a9578bf): [((nbv * 1000 + 999) / weight) as u32] truncates, so a
    non-beneficial value of 25.7 BTC on a 600 wu transaction read as 302 sat/kw and passed; the
    repaired estimator saturates and refuses it *)
Definition validate_beneficial_old (p : profile) (pol : opolicy) (sum_in sum_out w : N) : vres :=
  match sub_checked sum_in sum_out with
  | None => VErr T_format_standard
  | Some nbv =>
      match CommitmentPolicy.estimate_feerate_per_kw_old p nbv w with
      | Trap => VPanic
      | Val r => if max_feerate pol <? r then VErr T_fee_range else VOk nbv
      end
  end.

Example C08_rate_truncation_refuted :
  exists nbv w,
    (forall p, validate_beneficial_old p pol_ex nbv 0 w = VOk nbv) /\
    ~ nbv * 1000 + 999 < (max_feerate pol_ex + 1) * w /\
    validate_beneficial strict pol_ex nbv 0 w = VErr T_fee_range.
Proof.
  exists 2576980558, 600.
  split; [intros []; vm_compute; reflexivity|].
  split; [vm_compute; intros H; discriminate | vm_compute; reflexivity].
Qed.

(** [Node::check_onchain_tx] as found: [non_beneficial_sat * 1000] in plain u64 arithmetic.  With no
    effective rate bound (max_feerate_per_kw = u32::MAX) a non-beneficial value of 2^64 / 1000
    satoshi (rounded up) is counted as 384 msat by a release build — accepted under an hourly limit of
    10 000 000 msat — and panics a debug build; the repaired code refuses it *)
Example C08_msat_wrap_refuted :
  exists pol c now nc nbv c1,
    check_onchain_old Release strict pol c now nc = (COk nbv, c1) /\
    limit c < nbv * 1000 /\ velocity c1 = 384 /\
    check_onchain_old Debug strict pol c now nc = (CPanic, c) /\
    fst (check_onchain strict pol c now nc) = CErr T_fee_range.
Proof.
  exists (mkOPol U32MAX false), (of_spec Hourly 10000000), 161398, (fee_tx 18446744073709552).
  eexists. eexists. split; [vm_compute; reflexivity|].
  split; [vm_compute; reflexivity|]. split; [vm_compute; reflexivity|].
  split; vm_compute; reflexivity.
Qed.

Check C08_ok_implies.
Check C08_unknown_reported.
Check C08_fee_velocity.

(** The feerate estimate behind the non-beneficial-value bound of the on-chain model is the one in
    the source.  Gen/TxUtilGen.v is the statement-by-statement translation of [estimate_feerate_per_kw]
    (vls-core/src/util/transaction_utils.rs, regenerated on every run by tools/gen_rustfn.py): for
    every u64 fee and every non-zero weight it returns, in both build profiles, the model's value. *)
From VLS Require Gen.TxUtilGen Proofs.TxUtilGenProofs.
Theorem C08_feerate_estimate_is_source :
  forall (prof : profile) (fee w : N),
    fee <= U64MAX -> 0 < w ->
    TxUtilGen.gen_estimate_feerate_per_kw prof fee w = Val (Onchain.estimate fee w).
Proof. exact TxUtilGenProofs.gen_estimate_is_model. Qed.
Print Assumptions C08_feerate_estimate_is_source.

(** The numeric rules behind the non-beneficial-value bound are the ones in the source.
    Gen/OnchainGen.v is the statement-by-statement translation (tools/gen_rustfn.py, regenerated on
    every run) of SimpleValidator::validate_beneficial_value - the whole body: the checked
    difference of inputs and beneficial outputs (policy-onchain-format-standard, unfiltered), the
    feerate estimate of Gen/TxUtilGen.v, the maximum feerate, the developer flag through
    `dev_flags.as_ref().unwrap_or(&DEFAULT_DEV_FLAGS)` (DEFAULT_DEV_FLAGS read from the file),
    policy-onchain-fee-range through the filter - and of the fee tail of ::validate_onchain_tx: the
    statements from `let mut sum_inputs: u64 = 0;` to the end of the function (the checked sum of the
    input values, policy-onchain-fee-range unfiltered on overflow; the call of
    validate_beneficial_value with its `?`; Ok(non_beneficial)), read as a function of the three
    variables they use.  For every source-level policy, every filter and both build profiles the
    generated functions answer what [validate_beneficial] and the last two steps of
    [validate_onchain] answer - value, refusal tag or panic.  Side condition of the first theorem:
    the input sum is a u64; the tail needs none (its sum is made by checked additions).
    Not translated: the per-output loop of validate_onchain_tx (a local macro, locks on channel
    slots, a match on their state, a growing vector of unknown indices) and Node::check_onchain_tx
    (locks, iterator chains); they stay tied by the correspondence check. *)
From VLS Require Gen.CommitmentPolicyGen Gen.OnchainGen Proofs.OnchainGenProofs.
Theorem C08_beneficial_value_rule_is_source :
  forall (prof : profile) (swarn : string -> bool) (gp : CommitmentPolicyGen.SimplePolicy)
         (sum_inputs sum_beneficial weight : N),
    (sum_inputs <=? U64MAX) = true ->
    OnchainGen.gen_validate_beneficial_value prof swarn gp sum_inputs sum_beneficial weight =
    OnchainGenProofs.of_vres
      (validate_beneficial (OnchainGenProofs.otag_filter swarn) (OnchainGenProofs.abs_opolicy gp)
         sum_inputs sum_beneficial weight).
Proof. exact OnchainGenProofs.gen_beneficial_is_model. Qed.
Print Assumptions C08_beneficial_value_rule_is_source.

Theorem C08_onchain_rules_are_source :
  forall (prof : profile) (swarn : string -> bool) (gp : CommitmentPolicyGen.SimplePolicy)
         (beneficial_sum : N) (values_sat : list N) (weight_lower_bound : N),
    OnchainGen.gen_validate_onchain_tx_fee_tail prof swarn gp beneficial_sum values_sat weight_lower_bound =
    OnchainGenProofs.of_vres
      (match sum_checked values_sat 0 with
       | None => VErr T_fee_range
       | Some sum_inputs =>
           validate_beneficial (OnchainGenProofs.otag_filter swarn) (OnchainGenProofs.abs_opolicy gp)
             sum_inputs beneficial_sum weight_lower_bound
       end).
Proof. exact OnchainGenProofs.gen_fee_tail_is_model. Qed.
Print Assumptions C08_onchain_rules_are_source.
