(** C07 — mutual close pays the holder its due to an owned or allowlisted destination.

    The signature primitives ([sighash], [sign], the funding key), the wallet ([can_spend]) and
    the allowlist ([allowlisted]) are universally quantified: the theorems hold for every
    wallet, every allowlist content at signing time and every signature scheme.  The model
    describes the code with the repaired [estimate_feerate_per_kw] (no wrap, no truncation). *)
From VLS Require Import Base.U64 Base.Eqb Model.MutualClose Proofs.MutualCloseProofs.

(** Phase 2 ([sign_mutual_close_tx_phase2]): under a non-permissive filter, for every policy,
    channel setup (funder or fundee, upfront script or not), enforcement state, values, scripts
    and wallet path - all amounts unbounded, so every u64 overflow candidate is covered - a
    returned signature implies: both current commitments exist and hold no HTLC; the fee is
    within the policy range as a true (unwrapped) quantity; the side that does not pay the fee
    gets its balance of BOTH commitments within epsilon; a positive holder value goes to a
    present script that the wallet can spend under the given path or that is allowlisted, and
    that is the upfront shutdown script if one was fixed; the signed message is the digest of
    the canonical closing transaction of these arguments for the channel's funding outpoint and
    value; and afterwards the channel is marked closed in memory and in the store. *)
Theorem C07_accept_phase2 :
  forall (keyT msgT sigT : Type) (sighash : tx -> N -> msgT) (sign : keyT -> msgT -> sigT) (fk : keyT)
         (warn : tag -> bool) (can_spend : path -> script -> option bool)
         (allowlisted : script -> path -> bool) (pol : policy)
         (persist_ok : bool) (s : setup) (c c' : chan) (a : close_args) (sg : sigT),
    (forall t, warn t = false) ->
    max_feerate pol < U32MAX ->
    sign_close_phase2 keyT msgT sigT sighash sign fk warn can_spend allowlisted pol
                      persist_ok s c a = (c', Signed sg) ->
    CloseOk can_spend allowlisted pol s (c_mem c) a /\
    sg = sign fk (sighash (canon_close s (a_vh a) (a_vc a) (unwrap_script (a_sh a))
                                       (unwrap_script (a_sc a)))
                          (channel_value s)) /\
    closed (c_mem c') = true /\ c_disk c' = c_mem c' /\ c_mem c' = set_closed (c_mem c).
Proof.
  intros keyT msgT sigT sighash sign fk warn cs al pol pok s c c' a sg Hw Hm H.
  apply phase2_signed in H. destruct H as (V & _ & Hs & ->).
  split; [eapply validate_strict; eassumption|]. split; [exact Hs|].
  cbn [c_mem c_disk set_closed closed]. auto.
Qed.
Print Assumptions C07_accept_phase2.

(** Phase 1 ([sign_mutual_close_tx]): the request is a transaction and one wallet path per
    output.  A returned signature implies that there is an assignment of the request's outputs
    to holder and counterparty - the holder's output taken together with the path supplied for
    THAT output - for which the whole conjunction above holds (whichever of the two attempts
    passed is the one it holds for), that the request's transaction IS the canonical closing
    transaction of that assignment (version, lock time, the single input spending the funding
    outpoint with final sequence and no script_sig / witness, positive outputs in order), that
    the signed message is its digest, and that the channel is closed afterwards. *)
Theorem C07_accept_phase1 :
  forall (keyT msgT sigT : Type) (sighash : tx -> N -> msgT) (sign : keyT -> msgT -> sigT) (fk : keyT)
         (warn : tag -> bool) (can_spend : path -> script -> option bool)
         (allowlisted : script -> path -> bool) (pol : policy)
         (persist_ok : bool) (s : setup) (c c' : chan) (t : tx) (paths : list path) (sg : sigT),
    (forall tg, warn tg = false) ->
    max_feerate pol < U32MAX ->
    sign_close_phase1 keyT msgT sigT sighash sign fk warn can_spend allowlisted pol
                      persist_ok s c t paths = (c', Signed sg) ->
    exists a : close_args,
      length paths = length (tx_outs t) /\ Assignment t paths a /\
      CloseOk can_spend allowlisted pol s (c_mem c) a /\
      t = canon_close s (a_vh a) (a_vc a) (unwrap_script (a_sh a)) (unwrap_script (a_sc a)) /\
      sg = sign fk (sighash t (channel_value s)) /\
      closed (c_mem c') = true /\ c_disk c' = c_mem c' /\ c_mem c' = set_closed (c_mem c).
Proof.
  intros keyT msgT sigT sighash sign fk warn cs al pol pok s c c' t paths sg Hw Hm H.
  apply phase1_signed in H. destruct H as (a & D & _ & Hs & ->).
  apply decode_facts in D. destruct D as (Hl & Ha & V & Hr).
  specialize (Hr (Hw _)). exists a.
  split; [exact Hl|]. split; [exact Ha|]. split; [eapply validate_strict; eassumption|].
  split; [symmetry; exact Hr|]. split; [rewrite <- Hr; exact Hs|].
  cbn [c_mem c_disk set_closed closed]. auto.
Qed.
Print Assumptions C07_accept_phase1.

(** The same for a filter given as rules: no rule with action Warn. *)
Corollary C07_accept_phase2_rules :
  forall keyT msgT sigT sighash sign fk rules can_spend allowlisted pol persist_ok s c c' a sg,
    Forall (fun r => r_warn r = false) rules ->
    max_feerate pol < U32MAX ->
    sign_close_phase2 keyT msgT sigT sighash sign fk (warn_of rules) can_spend allowlisted pol
                      persist_ok s c a = (c', Signed sg) ->
    CloseOk can_spend allowlisted pol s (c_mem c) a /\ closed (c_mem c') = true.
Proof.
  intros keyT msgT sigT sighash sign fk rules cs al pol pok s c c' a sg Hr Hm H.
  eapply C07_accept_phase2 in H; try eassumption.
  - tauto.
  - intros t. apply filter_no_warn_rules. exact Hr.
Qed.

(** Per tag, for an arbitrary filter (either entry point, through the arguments decided on):
    a conjunct can only be missing when its own tag is downgraded to a warning; both
    commitments exist and the outputs never exceed the funding whatever the filter says. *)
Theorem C07_accept_per_tag :
  forall (warn : tag -> bool) can_spend allowlisted (pol : policy) (s : setup) (e : estate) (a : close_args),
    validate_mutual_close warn can_spend allowlisted pol s e a = Ok ->
    exists hi ci,
      holder_info e = Some hi /\ cp_info e = Some ci /\
      a_vh a + a_vc a <= channel_value s /\
      (warn T_no_htlcs = false -> NoHtlcs hi ci) /\
      (warn T_fee_range = false -> max_feerate pol < U32MAX -> FeeInRange pol s a) /\
      (warn T_value_matches = false -> NonFeePayerWithinEps pol s hi ci a) /\
      (warn T_destination = false -> HolderDestinationOk can_spend allowlisted s a).
Proof. exact validate_facts. Qed.
Print Assumptions C07_accept_per_tag.

(** ... and every signature of either entry point went through that validation; in phase 1
    the transaction signed differs from the request only if the recomposition tag is
    downgraded. *)
Theorem C07_signature_validated :
  forall keyT msgT sigT sighash sign fk warn can_spend allowlisted pol persist_ok s c c' sg,
    (forall a,
       sign_close_phase2 keyT msgT sigT sighash sign fk warn can_spend allowlisted pol
                         persist_ok s c a = (c', Signed sg) ->
       validate_mutual_close warn can_spend allowlisted pol s (c_mem c) a = Ok /\
       sg = sign fk (sighash (close_of s a) (channel_value s))) /\
    (forall t paths,
       sign_close_phase1 keyT msgT sigT sighash sign fk warn can_spend allowlisted pol
                         persist_ok s c t paths = (c', Signed sg) ->
       exists a, Assignment t paths a /\
         validate_mutual_close warn can_spend allowlisted pol s (c_mem c) a = Ok /\
         sg = sign fk (sighash (close_of s a) (channel_value s)) /\
         (warn T_format_standard = false -> close_of s a = t)).
Proof.
  intros keyT msgT sigT sighash sign fk warn cs al pol pok s c c' sg. split.
  - intros a H. apply phase2_signed in H. tauto.
  - intros t paths H. apply phase1_signed in H. destruct H as (a & D & _ & Hs & _).
    apply decode_facts in D. exists a. tauto.
Qed.

(** A signature is returned only after the store acknowledged the closed channel: whatever the
    filter, after a signature the stored enforcement state is the one in memory, closed, and
    otherwise unchanged.  Without a signature the store is left as it was (and the memory too,
    unless the store refused the write). *)
Theorem C07_closed_persisted :
  forall keyT msgT sigT sighash sign fk warn can_spend allowlisted pol persist_ok s c c' sg,
    (forall a,
       sign_close_phase2 keyT msgT sigT sighash sign fk warn can_spend allowlisted pol
                         persist_ok s c a = (c', Signed sg) ->
       persist_ok = true /\ c_disk c' = c_mem c' /\ c_mem c' = set_closed (c_mem c) /\
       closed (c_disk c') = true) /\
    (forall t paths,
       sign_close_phase1 keyT msgT sigT sighash sign fk warn can_spend allowlisted pol
                         persist_ok s c t paths = (c', Signed sg) ->
       persist_ok = true /\ c_disk c' = c_mem c' /\ c_mem c' = set_closed (c_mem c) /\
       closed (c_disk c') = true).
Proof.
  intros keyT msgT sigT sighash sign fk warn cs al pol pok s c c' sg. split.
  - intros a H. apply phase2_signed in H. destruct H as (_ & Hp & _ & ->).
    cbn [c_mem c_disk set_closed closed]. auto.
  - intros t paths H. apply phase1_signed in H. destruct H as (a & _ & Hp & _ & ->).
    cbn [c_mem c_disk set_closed closed]. auto.
Qed.
Print Assumptions C07_closed_persisted.

Theorem C07_unsigned_store_unchanged :
  forall keyT msgT sigT sighash sign fk warn can_spend allowlisted pol persist_ok s c c' o,
    (forall sg : sigT, o <> Signed sg) ->
    (forall a,
       sign_close_phase2 keyT msgT sigT sighash sign fk warn can_spend allowlisted pol
                         persist_ok s c a = (c', o) ->
       c_disk c' = c_disk c /\ (o <> Refused R_internal -> c' = c)) /\
    (forall t paths,
       sign_close_phase1 keyT msgT sigT sighash sign fk warn can_spend allowlisted pol
                         persist_ok s c t paths = (c', o) ->
       c_disk c' = c_disk c /\ (o <> Refused R_internal -> c' = c)).
Proof.
  intros keyT msgT sigT sighash sign fk warn cs al pol pok s c c' o Hn. split.
  - intros a H. eapply phase2_unsigned; eassumption.
  - intros t paths H. eapply phase1_unsigned; eassumption.
Qed.

(** What "canonical closing transaction" means: version 2, lock time 0, one input spending the
    funding outpoint with final sequence, empty script_sig and witness; the outputs are exactly
    the positive ones of (counterparty, holder), each once, in non-decreasing (value, script
    bytes) order - and outputs the order cannot tell apart are identical. *)
Theorem C07_canonical_close :
  forall s vh vc sh sc,
    let t := canon_close s vh vc sh sc in
    tx_version t = 2 /\ tx_locktime t = 0 /\
    tx_ins t = [mkIn (funding s) [] SEQUENCE_MAX []] /\
    (forall o, In o (tx_outs t) <-> (o = mkOut vc sc /\ 0 < vc) \/ (o = mkOut vh sh /\ 0 < vh)) /\
    length (tx_outs t) = Nat.add (if 0 <? vc then 1%nat else 0%nat) (if 0 <? vh then 1%nat else 0%nat) /\
    (forall a b, tx_outs t = [a; b] -> out_cmp a b <> Gt) /\
    (forall a b, out_cmp a b = Eq -> a = b).
Proof.
  intros s vh vc sh sc t. subst t. cbn [canon_close tx_version tx_locktime tx_ins tx_outs].
  repeat split; try (intros; apply canon_outs_in; assumption).
  - apply canon_outs_length.
  - apply canon_outs_sorted.
  - apply out_cmp_eq.
Qed.

(** The fee window in the form the code compares: [min*w <= 1000*fee + 999 < (max+1)*w]. *)
Theorem C07_fee_window_equiv :
  forall lo hi w fee,
    (bolt3_fee lo w <= fee /\ fee < bolt3_fee hi w) <->
    (lo * w <= fee * 1000 + 999 /\ fee * 1000 + 999 < hi * w).
Proof. exact bolt3_window_iff. Qed.

(** Filter semantics: the default filter downgrades nothing; only an explicit matching Warn
    rule that no earlier rule pre-empts does. *)
Theorem C07_filter_default : forall t, warn_of [] t = false.
Proof. reflexivity. Qed.

Theorem C07_filter_only_explicit :
  forall rules t,
    warn_of rules t = true ->
    exists pre r post, rules = pre ++ r :: post /\ rule_matches r (tag_name t) = true /\
                       r_warn r = true /\
                       Forall (fun q => rule_matches q (tag_name t) = false) pre.
Proof. intros rules t. apply filter_warn_explicit. Qed.

Definition pol_ex : policy := mkPol 253 25000 10000.
Definition ours : script := [0; 20; 7; 7; 7].
Definition theirs : script := [0; 20; 9; 9; 9].
Definition elsewhere : script := [0; 20; 200; 1; 1].
(** a wallet that derives [ours] under path [7] (and nothing else), an allowlist that holds
    [elsewhere] *)
Definition cs_ex (p : path) (scr : script) : option bool :=
  match p with
  | [_] => Some (bytes_eqb p [7] && bytes_eqb scr ours)
  | [] => Some false
  | _ => None
  end.
Definition al_ex (scr : script) (_ : path) : bool := bytes_eqb scr elsewhere.
Definition fund_ex : outpoint := mkOP 2 0.
Definition sym_hash (t : tx) (amount : N) : tx * N := (t, amount).
Definition sym_sig (k : N) (m : tx * N) : N * (tx * N) := (k, m).

(** funder: holder 1 998 000 / counterparty 1 000 000 in both commitments (the counterparty's
    differs by epsilon exactly in the counterparty's own commitment) *)
Definition est_out : estate :=
  mkEstate (Some (mkInfo 1998000 1000000 0 0)) (Some (mkInfo 1010000 1988000 0 0)) false.
Definition setup_out : setup := mkSetup true 3000000 None fund_ex.

Example C07_nonvacuous_phase2 :
  let a := mkArgs 1999000 1000000 (Some ours) (Some theirs) [7] in
  let c := mkChan est_out est_out in
  exists c' sg,
    sign_close_phase2 N (tx * N) (N * (tx * N)) sym_hash sym_sig 11 strict cs_ex al_ex pol_ex
                      true setup_out c a = (c', Signed sg) /\
    max_feerate pol_ex < U32MAX /\
    tx_outs (close_of setup_out a) = [mkOut 1000000 theirs; mkOut 1999000 ours] /\
    closed (c_disk c') = true.
Proof. vm_compute. do 2 eexists. repeat split; reflexivity. Qed.

(** fundee with an upfront shutdown script that is only allowlisted (no wallet path) *)
Example C07_nonvacuous_phase2_fundee_upfront :
  let e := mkEstate (Some (mkInfo 1000000 1998000 0 0)) (Some (mkInfo 1998000 1000000 0 0)) false in
  let s := mkSetup false 3000000 (Some elsewhere) fund_ex in
  let a := mkArgs 990000 2009000 (Some elsewhere) (Some theirs) [] in
  exists c' sg,
    sign_close_phase2 N (tx * N) (N * (tx * N)) sym_hash sym_sig 11 strict cs_ex al_ex pol_ex
                      true s (mkChan e e) a = (c', Signed sg) /\
    (* one satoshi further away from the commitments, or to the wallet instead of the upfront
       script, and it is refused *)
    fst (sign_close_phase2 N (tx * N) (N * (tx * N)) sym_hash sym_sig 11 strict cs_ex al_ex pol_ex
           true s (mkChan e e) (mkArgs 989999 2010000 (Some elsewhere) (Some theirs) [])) = mkChan e e /\
    snd (sign_close_phase2 N (tx * N) (N * (tx * N)) sym_hash sym_sig 11 strict cs_ex al_ex pol_ex
           true s (mkChan e e) (mkArgs 990000 2009000 (Some ours) (Some theirs) [7]))
      = Refused (R_policy T_destination).
Proof. vm_compute. do 2 eexists. repeat split; reflexivity. Qed.

(** phase 1, where the FIRST attempt fails and the second passes: both sides hold 1 499 500,
    the outputs are equal in value and ordered by script, the guess takes output 0 for the
    holder's, neither wallet nor allowlist know it, the other assignment is the valid one *)
Definition theirs_low : script := [0; 20; 1; 1; 1].
Definition est_even : estate :=
  mkEstate (Some (mkInfo 1499500 1499500 0 0)) (Some (mkInfo 1499500 1499500 0 0)) false.
Definition tx_even (outs : list txout) : tx := mkTx 2 0 [mkIn fund_ex [] SEQUENCE_MAX []] outs.

Example C07_nonvacuous_phase1_second_attempt :
  let t := tx_even [mkOut 1499500 theirs_low; mkOut 1499500 ours] in
  let paths : list path := [[]; [7]] in
  let first := mkArgs 1499500 1499500 (Some theirs_low) (Some ours) [] in
  let second := mkArgs 1499500 1499500 (Some ours) (Some theirs_low) [7] in
  candidates pol_ex est_even (tx_outs t) paths = Some (first, second) /\
  validate_mutual_close strict cs_ex al_ex pol_ex setup_out est_even first = Err T_destination /\
  decode_and_validate strict cs_ex al_ex pol_ex setup_out est_even t paths = DOk second /\
  (exists c' sg,
     sign_close_phase1 N (tx * N) (N * (tx * N)) sym_hash sym_sig 11 strict cs_ex al_ex pol_ex
                       true setup_out (mkChan est_even est_even) t paths = (c', Signed sg) /\
     sg = (11, (t, 3000000)) /\ closed (c_disk c') = true) /\
  (* the same outputs in the other order are not the canonical transaction *)
  snd (sign_close_phase1 N (tx * N) (N * (tx * N)) sym_hash sym_sig 11 strict cs_ex al_ex pol_ex
         true setup_out (mkChan est_even est_even)
         (tx_even [mkOut 1499500 ours; mkOut 1499500 theirs_low]) [[7]; []])
    = Refused (R_policy T_format_standard).
Proof. vm_compute. repeat split; try reflexivity. do 2 eexists. repeat split; reflexivity. Qed.

(** [max_feerate = u32::MAX] means "no maximum": the estimate saturates there and is accepted *)
Example C07_max_feerate_u32max_is_unlimited :
  let pol := mkPol 253 U32MAX 10000 in
  let e := mkEstate (Some (mkInfo 0 1000000 0 0)) (Some (mkInfo 1000000 0 0 0)) false in
  let s := mkSetup true 10000000000 None fund_ex in
  let a := mkArgs 0 1000000 None (Some theirs) [] in
  validate_mutual_close strict cs_ex al_ex pol s e a = Ok /\ ~ FeeInRange pol s a.
Proof.
  split; [vm_compute; reflexivity|]. intros (_ & _ & H). vm_compute in H. discriminate.
Qed.

Check C07_accept_phase1.
Check C07_accept_phase2.
Check C07_closed_persisted.

(** The feerate estimate behind the fee-range clause of the mutual-close model is the one in the
    source.  Gen/TxUtilGen.v is the statement-by-statement translation of [estimate_feerate_per_kw]
    (vls-core/src/util/transaction_utils.rs, regenerated on every run by tools/gen_rustfn.py): for
    every u64 fee and every non-zero weight it returns, in both build profiles, the model's value. *)
From VLS Require Gen.TxUtilGen Proofs.TxUtilGenProofs.
Theorem C07_feerate_estimate_is_source :
  forall (prof : profile) (fee w : N),
    fee <= U64MAX -> 0 < w ->
    TxUtilGen.gen_estimate_feerate_per_kw prof fee w = Val (MutualClose.estimate_feerate_per_kw fee w).
Proof. exact TxUtilGenProofs.gen_estimate_is_model. Qed.
Print Assumptions C07_feerate_estimate_is_source.

(** The validator the theorems above are about is the one in the source.  Gen/MutualCloseGen.v is the
    statement-by-statement translation (tools/gen_rustfn.py, regenerated on every run) of
    SimpleValidator::validate_mutual_close_tx - the whole body: both commitment infos present
    (policy-mutual-value-matches-commitment, unfiltered), a positive value needs a script on either
    side, the upfront shutdown script, no pending HTLCs, the checked sum of the outputs, validate_fee
    on the weight of the closing transaction, the epsilon comparison of the side that does not pay the
    fee against both commitments, and the holder's script in the wallet or on the allowlist - with
    ::outside_epsilon_range and CommitmentInfo2::htlcs_is_empty; validate_fee is the translation of
    Gen/CommitmentPolicyGen.v.  Parameters of the translation: the wallet's two answers (uninterpreted
    functions of identities; None = the wallet's error), the policy filter, and the weight
    mutual_close_tx_weight returns for LDK's ClosingTransaction built from the function's own
    arguments - instantiated here with the model's [close_weight] of the canonical closing
    transaction.  Scripts and paths are identities on the source side; [dec] / [decp] say which byte /
    index list an identity stands for, and any faithful naming will do ([enc (dec i) = i]).  For every
    source-level policy, setup, enforcement state and arguments, every wallet, every filter and both
    build profiles the generated function answers what the model answers on the abstraction, refusal
    tags and panics included.  Side condition [close_fits] (boolean; true of every value of the Rust
    types): the channel value, the two output values and the commitments' values fit u64.
    Not translated: decode_and_validate_mutual_close_tx (script parsing, the recomposition against
    LDK's builder, the likely/unlikely retry) - it stays tied by the correspondence check. *)
From VLS Require Gen.CommitmentPolicyGen Gen.MutualCloseGen Proofs.MutualCloseGenProofs.
Theorem C07_close_rules_are_source :
  forall (prof : profile) (swarn : string -> bool) (gp : CommitmentPolicyGen.SimplePolicy)
         (wcs : N -> N -> N -> option bool) (wal : N -> N -> N -> bool) (wid : N)
         (gs : CommitmentPolicyGen.ChannelSetup) (ge : MutualCloseGen.EnforcementState)
         (vh vc : N) (hs cs : option N) (pid : N)
         (enc : script -> N) (dec : N -> script) (encp : path -> N) (decp : N -> path),
    (forall i, enc (dec i) = i) -> (forall i, encp (decp i) = i) ->
    MutualCloseGenProofs.close_fits gs ge vh vc = true ->
    MutualCloseGen.gen_validate_mutual_close_tx prof swarn gp
      (close_weight (tx_outs (close_of (MutualCloseGenProofs.abs_setup dec gs)
                                       (MutualCloseGenProofs.abs_args dec decp vh vc hs cs pid))))
      wcs wal wid gs ge vh vc hs cs pid =
    MutualCloseGenProofs.of_res
      (validate_mutual_close (MutualCloseGenProofs.tag_filter swarn)
         (fun p s => wcs wid (encp p) (enc s)) (fun s p => wal wid (enc s) (encp p))
         (MutualCloseGenProofs.abs_policy gp) (MutualCloseGenProofs.abs_setup dec gs)
         (MutualCloseGenProofs.abs_estate ge) (MutualCloseGenProofs.abs_args dec decp vh vc hs cs pid)).
Proof. exact MutualCloseGenProofs.gen_mutual_close_is_model. Qed.
Print Assumptions C07_close_rules_are_source.
