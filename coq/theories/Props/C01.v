(** C01 — a holder commitment is revoked only after its successor is counter-signed. *)
From VLS Require Import Base.U64 Model.Enforcement Proofs.EnforcementProofs.
From Coq Require String.
From VLS Require Gen.EnforcementGen Gen.EnforcementRulesGen Proofs.EnforcementGenProofs
  Proofs.EnforcementRulesGenProofs Proofs.RustFacts.

(** The filter may downgrade any tag except the four this property rests on. *)
Definition c01_filter (warn : tag -> bool) : Prop :=
  warn TRevokeNewSigned = false /\ warn TRevokeNotClosed = false /\
  warn THolderNotRevoked = false /\ warn TOther = false.

(** For every request history on a channel slot (validate / revoke / activate / get-point /
    get-secret / sign, direct or through the handler composites of protocol versions below
    and above the revoke split, any commitment numbers that fit the wire format, restarts
    anywhere), in both build profiles: if the secret of holder commitment [k] ever left the
    signer then commitment [k+1] was accepted in that history by a validation request ... *)
Theorem C01_secret_needs_successor :
  forall (warn : tag -> bool) (prof : profile) (ops : list op) (k : N),
    c01_filter warn -> Forall wf_op ops -> short ops ->
    In k (disclosed (snd (grun warn prof (Stub, ghost0) ops))) ->
    exists c, In (k + 1, c) (validated (snd (grun warn prof (Stub, ghost0) ops))).
Proof.
  intros warn prof ops k [W1 [W2 [W3 W4]]].
  exact (disclosed_needs_successor warn prof W1 W2 W3 W4 ops k).
Qed.
Print Assumptions C01_secret_needs_successor.

(** ... and an entry of the validated ledger can only come from a request that carried
    counterparty signatures which verified against the rebuilt transaction. *)
Theorem C01_validated_means_signatures_verified :
  forall (warn : tag -> bool) (prof : profile) (ops : list op) (n : N) (c : content),
    In (n, c) (validated (snd (grun warn prof (Stub, ghost0) ops))) ->
    exists o, In o ops /\ validation_of o n c.
Proof.
  intros warn prof ops n c H.
  destruct (validated_origin warn prof ops (Stub, ghost0) n c H) as [H0|H0]; [contradiction|exact H0].
Qed.
Print Assumptions C01_validated_means_signatures_verified.

(** A channel that is not yet set up never discloses any secret. *)
Theorem C01_stub_never :
  forall (warn : tag -> bool) (prof : profile) (ops : list op),
    c01_filter warn -> Forall wf_op ops -> short ops ->
    fst (grun warn prof (Stub, ghost0) ops) = Stub ->
    disclosed (snd (grun warn prof (Stub, ghost0) ops)) = [].
Proof.
  intros warn prof ops _. exact (stub_discloses_nothing warn prof ops).
Qed.
Print Assumptions C01_stub_never.

(** Non-vacuity: a history that discloses secrets 0 and 1 (once through the old-protocol
    composite, once through an explicit revoke after a restart). *)
Example C01_nonvacuous :
  let ops := [Setup; ValidateHolder 0 0 true true; Activate;
              HValidateOld 1 4 true true true; Restart;
              ValidateHolder 2 5 true true; ValidateHolder 2 6 false true; Revoke 2 true;
              GetSecret 1; GetSecret 2] in
  Forall wf_op ops /\ short ops /\
  disclosed (snd (grun strict Debug (Stub, ghost0) ops)) = [1; 1; 0] /\
  validated (snd (grun strict Debug (Stub, ghost0) ops)) = [(2, 5); (1, 4); (0, 0)].
Proof.
  cbv zeta. split; [repeat constructor; cbv; discriminate|].
  split; [cbv; discriminate|]. vm_compute. split; reflexivity.
Qed.

(** The guard of the secret getters as it was before the repair wraps in a release build:
    with next_holder_commit_num = 1 the request number 2^64-2 obtains the secret of holder
    commitment 2^48-2. *)
Example C01_old_wrapping_bound_refuted :
  exists (e : estate) (n : N),
    next_h e = 1 /\ n <= U64MAX /\
    secret_res_old_release e n = Some 281474976710654.
Proof.
  exists (mkE 1 (Some 0) None false 0 0 None None None None []), 18446744073709551614.
  vm_compute. repeat split; congruence.
Qed.

(** The holder-side checks of the model are the ones in the source.  Gen/EnforcementRulesGen.v is the
    statement-by-statement translation (tools/gen_rustfn.py, regenerated on every run) of
    SimpleValidator's validate_holder_commitment_tx - the whole body; the answer [v] of its call of
    validate_commitment_tx (the model's [pol_ok]; translated and tied to the policy model under C05)
    is a parameter - over the EnforcementState record of Gen/EnforcementGen.v.  For every model state
    [e] (as the source-level state [to_res fr e]), every request, every filter and both build
    profiles, its outcome - accepted, refused, panic ([status_of] forgets which tag refused) - is what
    [do_validate] / [do_sign_redundant] compute after the point check: the content verdict first, then
    [validate_holder_state]: retry-same against the current holder commitment (a panic when there is
    none), holder-not-revoked, and no new state on a closed channel.  The filter of the source is a
    function of the tag string; [etag_filter] reads it on the names of the model's tags
    (TRetrySame = policy-commitment-retry-same, THolderNotRevoked = policy-commitment-holder-not-revoked,
    TSpendsActive = policy-commitment-spends-active-utxo: one source tag each).
    Side condition [next_h e < U64MAX]: the model adds [n + 1] and [n + 2] before the retry rule, the
    source adds [n + 2] after it; the orders differ only in a debug build with
    next_holder_commit_num = 2^64 - 1, n = 2^64 - 2 and a changed content (source: refused with
    retry-same; model: abort). *)
Theorem C01_holder_validation_checks_are_source :
  forall (prof : profile) (swarn : String.string -> bool) (fr : EnforcementGenProofs.frame) (e : estate)
         (v : trap (Rust.result unit)) (n pt setup cstate : N) (c : content),
    next_h e < U64MAX ->
    RustFacts.status_of
      (EnforcementRulesGen.gen_validate_holder_commitment_tx prof swarn v (EnforcementGenProofs.to_res fr e)
         n pt setup cstate c) =
    EnforcementRulesGenProofs.after_content v
      (validate_holder_state (EnforcementRulesGenProofs.etag_filter swarn) prof e n c).
Proof. exact EnforcementRulesGenProofs.gen_holder_checks_are_model. Qed.
Print Assumptions C01_holder_validation_checks_are_source.

(** ... and so is the advance of the holder side at a revocation: Validator::set_next_holder_commit_num
    (provided method of the trait, not overridden) with EnforcementState::set_next_holder_commit_num
    (Gen/EnforcementGen.v).  A number that is neither the next number nor its successor is refused
    (policy-revoke-new-commitment-signed); the successor moves the state exactly like [advance_h] (the
    counterparty signatures go to the frame; the pending next commitment, outside the translated
    record, is cleared by channel.rs); the next number itself passes the guard and dies in the
    assert_eq! of the state-level setter.  [do_revoke] only advances when [n = next_h e], i.e. with
    the successor. *)
Theorem C01_holder_advance_is_source :
  forall (prof : profile) (swarn : String.string -> bool) (fr : EnforcementGenProofs.frame) (e : estate)
         (num : N) (c : content) (sigs : N),
    next_h e < U64MAX ->
    EnforcementRulesGen.gen_set_next_holder_commit_num prof swarn (EnforcementGenProofs.to_res fr e) num c sigs =
    if negb (num =? next_h e) && negb (num =? next_h e + 1)
       && perr (EnforcementRulesGenProofs.etag_filter swarn) TRevokeNewSigned
    then Val (Rust.ErrR (EnforcementRulesGenProofs.etag_name TRevokeNewSigned))
    else if num =? next_h e + 1
         then Val (Rust.OkR (EnforcementGenProofs.to_res
                               (EnforcementGenProofs.mkF (Some sigs) (EnforcementGenProofs.f_initial fr)
                                                         (EnforcementGenProofs.f_secrets fr))
                               (advance_h e c)))
         else Trap.
Proof. exact EnforcementRulesGenProofs.gen_holder_advance_is_model. Qed.
Print Assumptions C01_holder_advance_is_source.
