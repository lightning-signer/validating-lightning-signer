(** C11 — every acknowledged state change is already durable. *)
From VLS Require Import Base.U64 Model.Enforcement Model.NodeOps
  Proofs.EnforcementProofs Proofs.RefusedProofs Props.C01.
From VLS Require Model.Velocity Proofs.VelocityProofs.

(** Channels: after every request of every history (restarts and aborts anywhere, both
    build profiles) the persisted enforcement state — counters, commitment contents,
    counterparty points and secrets, closed flag — is the one in memory: a signer restarted
    from the store continues from exactly the same state.  Neither the filter nor the bound on the
    history is needed (durability needs no invariant). *)
Theorem C11_channel_state_is_durable :
  forall (warn : tag -> bool) (prof : profile) (ops : list op) (ch : chan),
    c01_filter warn -> Forall wf_op ops -> short ops ->
    fst (grun warn prof (Stub, ghost0) ops) = Ready ch ->
    mem ch = disk ch.
Proof.
  intros warn prof ops ch _ Hwf _ Hr. apply crash_ready. rewrite <- Hr.
  apply grun_durable; [exact Hwf | reflexivity].
Qed.
Print Assumptions C11_channel_state_is_durable.

(** ... so a restart between any two requests is invisible. *)
Theorem C11_restart_is_invisible :
  forall (warn : tag -> bool) (prof : profile) (ops : list op),
    c01_filter warn -> Forall wf_op ops -> short ops ->
    fst (step warn prof (fst (grun warn prof (Stub, ghost0) ops)) Restart)
    = fst (grun warn prof (Stub, ghost0) ops).
Proof.
  intros warn prof ops _ Hwf _. rewrite step_restart. apply grun_durable; [exact Hwf | reflexivity].
Qed.
Print Assumptions C11_restart_is_invisible.

(** Node level: after every history of node-level requests what a restart reads back — channel
    slots with their forget flags, high-water mark, allowlist, approved invoices — is what the
    running signer has. *)
Theorem C11_node_state_is_durable :
  forall (ops : list nop),
    let s := nrun ninit ops in
    (forall d, slots (nrestore (ndsk s)) d = slots (nmem s) d) /\
    hwm (nrestore (ndsk s)) = hwm (nmem s) /\
    (forall k, allow (nrestore (ndsk s)) k = allow (nmem s) k) /\
    ninv (nrestore (ndsk s)) = ninv (nmem s).
Proof.
  intros ops. exact (NSync_restore _ (nrun_sync ops ninit NSync_init)).
Qed.
Print Assumptions C11_node_state_is_durable.

(** Velocity controls: what is persisted restores to itself (from C12). *)
Theorem C11_velocity_is_durable :
  forall (it : Velocity.itype) (lim0 : N) (ops : list Velocity.vop),
    fst (fst (Velocity.spec_triple it lim0)) < U64MAX ->
    Velocity.nondecreasing 0 (Velocity.op_times ops) = true ->
    Velocity.restore it lim0 (Velocity.disk (fst (Velocity.vrun it lim0 ops)))
    = Velocity.disk (fst (Velocity.vrun it lim0 ops)).
Proof. exact VelocityProofs.restart_keeps_counted. Qed.
Print Assumptions C11_velocity_is_durable.

(** Non-vacuity: a node history that creates, sets up and forgets channels, edits the
    allowlist, approves payments and restarts. *)
Example C11_nonvacuous :
  let ops := [NewChannel 1; NewChannel 2; SetupChannel 2; AddAllow 1 true; AddAllow 0 false; AddInvoice;
              ForgetChannel 2; NRestart; ForgetChannel 1; NewChannel 1; NewChannel 3; SetAllow 2 true] in
  let s := nrun ninit ops in
  map (slots (nmem s)) [1; 2; 3] = [SNone; SForgot; SStub] /\ hwm (nmem s) = 2 /\
  map (allow (nmem s)) [0; 1; 2] = [false; false; true] /\ ninv (nmem s) = 1.
Proof. vm_compute. repeat split. Qed.

(** forget_channel as it was before the repair did not write the tracker entry that holds the
    forget flag: a restart forgot that the node had forgotten the channel. *)
Example C11_old_forget_refuted :
  let s := forget_old (nrun ninit [NewChannel 1; SetupChannel 1]) 1 in
  slots (nmem s) 1 = SForgot /\ slots (nrestore (ndsk s)) 1 = SReady.
Proof. vm_compute. split; reflexivity. Qed.
