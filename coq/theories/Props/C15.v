(** C15 — channel state is discarded only when safely buried, and ids are never reused.
    The node model is Model/Prune.v; [p : params] covers both networks' stub allowance, every
    channel limit, and forget_channel with and without the tracker write (the repair of finding
    F10), so every statement but C15_restart_changes_nothing, which is about the repaired code,
    holds for all of them. *)
From VLS Require Import Base.U64 Model.Monitor Model.Prune Proofs.MonitorProofs Proofs.PruneProofs.
From VLS Require Gen.MonitorGen Proofs.MonitorGenProofs.

(** For every history of new / setup / forget / heartbeat / block connected / block
    disconnected / restart whose connected blocks keep the chain consistent, and every
    further step: a ready channel that is gone (or no longer ready) after the step was
    removed by a heartbeat, the node had asked to forget it, and on the channel's part of the
    current best chain ([g_view], a prefix of the chain that is connected right now) a
    double-spend of a funding input, a mutual close, or the completion of the sweep of a
    unilateral close lies MIN_DEPTH or more blocks deep: the monitor that connects only the
    part of the best chain up to some block records the event in that block, and at least
    MIN_DEPTH - 1 blocks follow. *)
Theorem C15_prune_sound :
  forall (p : params) (h : N) (ops : list nop) (s : node) (o : nop) (s' : node) (out : outcome)
         (id : chanid) (g : cfg) (a : bool) (m : mon) (fg fd : bool) (gh : ghost),
    h <= U32MAX ->
    nrun p (init_node h) ops = Ok s ->
    hist_admissible p (init_node h) ops = true ->
    step p s o = Ok (s', out) ->
    cfind id (chans s) = Some (Ready g a m fg fd gh) ->
    ~ ready_cfg id g s' ->
    o = Heartbeat /\ fg = true /\ g_asked gh = true
    /\ (exists older, chain s = g_view gh ++ older)
    /\ buried g (g_h0 gh) (rev (g_view gh)).
Proof.
  intros p h ops s o s' out id g a m fg fd gh Hh Hr Ha Hst Hf Hn.
  destruct (prune_sound_inv _ _ _ _ _ _ _ _ _ _ _ _ (nrun_inv _ _ _ _ (ninv_init _ Hh) Ha Hr) (finv_reach _ _ _ _ Hr) Hst Hf Hn)
    as (H1 & H2 & H3 & H4 & H5 & _). auto.
Qed.
Print Assumptions C15_prune_sound.

(** The same with the burial read off the transactions of the current best chain: the
    channel's view of it splits into an initial part [P], on which a registered funding input
    or the funding outpoint is spent, and at least MIN_DEPTH - 1 further blocks. *)
Theorem C15_prune_sound_chain :
  forall (p : params) (h : N) (ops : list nop) (s : node) (o : nop) (s' : node) (out : outcome)
         (id : chanid) (g : cfg) (a : bool) (m : mon) (fg fd : bool) (gh : ghost),
    h <= U32MAX ->
    nrun p (init_node h) ops = Ok s ->
    hist_admissible p (init_node h) ops = true ->
    step p s o = Ok (s', out) ->
    cfind id (chans s) = Some (Ready g a m fg fd gh) ->
    ~ ready_cfg id g s' ->
    exists older P Q, chain s = g_view gh ++ older /\ rev (g_view gh) = P ++ Q
      /\ MIN_DEPTH <= N.of_nat (length Q) + 1 /\ event_on g P.
Proof.
  intros p h ops s o s' out id g a m fg fd gh Hh Hr Ha Hst Hf Hn.
  destruct (prune_sound_inv _ _ _ _ _ _ _ _ _ _ _ _ (nrun_inv _ _ _ _ (ninv_init _ Hh) Ha Hr) (finv_reach _ _ _ _ Hr) Hst Hf Hn)
    as (_ & _ & _ & [older Ho] & Hb & Hc).
  destruct (buried_meaning g _ _ Hc Hb) as (P & Q & E1 & E2 & E3).
  exists older, P, Q. auto.
Qed.
Print Assumptions C15_prune_sound_chain.

(** What the three recorded events mean on a consistent chain [P] (oldest block first): a
    double-spend height only if a registered funding input is spent on [P]; a mutual-close
    height only if the funding outpoint is spent on [P]; "closing swept" only if the funding
    outpoint, the node's own output of the commitment transaction, every HTLC output the node
    can claim and every second-level output are all spent on [P]. *)
Theorem C15_event_meaning :
  forall (g : cfg) (h0 : N) (P : list block) (mP : mon),
    consistent g P = true -> run_adds g (init_mon g h0) P = Ok mP ->
    let s := m_state mP in
    (dsh s <> None -> exists i, In i (finputs g) /\ spent_on P i)
    /\ (mutual_h s <> None -> spent_on P (fund g))
    /\ (is_closing_swept s = true -> exists cl, clo s = Some cl
          /\ spent_on P (fund g)
          /\ (forall v b, c_our cl = Some (v, b) -> spent_on P (c_txid cl, v))
          /\ (forall v, In v (MonitorSim.htlc_idx cl) -> spent_on P (c_txid cl, v))
          /\ (forall o, In o (MonitorSim.slos cl) -> spent_on P o)).
Proof. exact event_meaning. Qed.
Print Assumptions C15_event_meaning.

(** [g_asked] is not a flag of the implementation; it means what it says: somewhere in the
    history there is a forget request for this id, made while the channel was ready. *)
Theorem C15_asked_means_forget_request :
  forall (p : params) (h : N) (ops : list nop) (s : node) (id : chanid) (g : cfg),
    nrun p (init_node h) ops = Ok s -> asked_in id g s ->
    exists ops1 ops2 s1, ops = ops1 ++ Forget id :: ops2 /\ nrun p (init_node h) ops1 = Ok s1 /\ ready_in id g s1.
Proof.
  intros p h ops s id g Hr Ha. destruct (asked_history p ops _ _ _ _ Hr Ha) as [(a & m & fg & fd & gh & [] & _) | H]; exact H.
Qed.
Print Assumptions C15_asked_means_forget_request.

(** Any step other than a heartbeat keeps every ready channel; a heartbeat keeps every
    ready channel that is not done (no assumption on the history at all). *)
Theorem C15_step_keeps :
  forall (p : params) (s : node) (o : nop) (s' : node) (out : outcome)
         (id : chanid) (g : cfg) (a : bool) (m : mon) (fg fd : bool) (gh : ghost),
    step p s o = Ok (s', out) ->
    cfind id (chans s) = Some (Ready g a m fg fd gh) ->
    (o = Heartbeat -> is_done (m_state m) fg = false) ->
    ready_cfg id g s'.
Proof. exact step_keeps_ready. Qed.
Print Assumptions C15_step_keeps.

(** In every reachable state, after any history: a ready channel that is not done (open, or
    merely closing, or closed but not yet buried, or not forgotten by the node) is still
    there, with the same monitor state, after any number of heartbeats and restarts. *)
Theorem C15_survives :
  forall (p : params) (h : N) (ops0 : list nop) (s : node) (ops : list nop) (s' : node)
         (id : chanid) (g : cfg) (a : bool) (m : mon) (fg fd : bool) (gh : ghost),
    nrun p (init_node h) ops0 = Ok s ->
    forallb quiet ops = true ->
    nrun p s ops = Ok s' ->
    cfind id (chans s) = Some (Ready g a m fg fd gh) ->
    is_done (m_state m) fg = false ->
    exists fg' fd', cfind id (chans s') = Some (Ready g a m fg' fd' gh) /\ is_done (m_state m) fg' = false.
Proof. exact survives. Qed.
Print Assumptions C15_survives.

(** With forget_channel writing the tracker entry (the code as repaired), a restart from the
    store, at any point of any history, restores exactly the state that was running: every
    monitor, forget flag, the high-water mark and the channel map.  Hence every later pruning
    decision (and every other answer) is the same with or without the restart. *)
Theorem C15_restart_changes_nothing :
  forall (p : params) (h : N) (ops : list nop) (s : node),
    forget_flush p = true -> nrun p (init_node h) ops = Ok s -> step p s Restart = Ok (s, Done).
Proof.
  intros p h ops s Hp Hr. apply sinv_restart.
  refine (nrun_preserves p sinv (step_sinv p Hp) _ _ _ _ Hr). intros id sl [].
Qed.
Print Assumptions C15_restart_changes_nothing.

(** The high-water mark never decreases, whatever happens (restarts included). *)
Theorem C15_hwm_monotone :
  forall (p : params) (ops : list nop) (s s' : node), nrun p s ops = Ok s' -> hwm s <= hwm s'.
Proof.
  intros p ops s s' H. refine (nrun_preserves p (fun x => hwm s <= hwm x) _ ops s s' (N.le_refl _) H).
  intros s1 o s2 out H1 E. exact (N.le_trans _ _ _ H1 (step_hwm _ _ _ _ _ E)).
Qed.
Print Assumptions C15_hwm_monotone.

(** Once an existing channel (stub or ready) with id [id] has been forgotten, then after any
    further history — restarts included — a request for a new channel with that or a lower
    dbid (for any peer) is refused and changes nothing, and no channel with such a dbid
    exists that did not exist when the forget request was answered. *)
Theorem C15_no_reuse :
  forall (p : params) (s1 : node) (id : chanid) (s2 : node) (out : outcome) (ops2 : list nop) (s3 : node) (id' : chanid),
    present id s1 ->
    step p s1 (Forget id) = Ok (s2, out) ->
    nrun p s2 ops2 = Ok s3 ->
    dbid id' <= dbid id ->
    step p s3 (NewChannel id') = Ok (s3, Refused EReuse) /\ (present id' s3 -> present id' s2).
Proof.
  intros p s1 id s2 out ops2 s3 id' Hp Hf Hr Hle.
  pose proof (forget_raises _ _ _ _ _ Hf Hp) as H2. pose proof (C15_hwm_monotone _ _ _ _ Hr) as H3.
  split; [apply new_refused; lia|]. intros H. eapply nrun_no_new_low; [exact Hr | lia | exact H].
Qed.
Print Assumptions C15_no_reuse.

(** Non-vacuity: a history with a mutual close, a forget request, a reorg across the
    threshold and a restart, in which the channel survives a heartbeat at depth 99 and is
    removed by the heartbeat at depth 100; the hypotheses of [C15_prune_sound] hold. *)
Definition ex_g : cfg := mkcfg 1010 1 [(1001, 0); (1002, 0)].
Definition ex_p : params := mkparams true 1000 true.
Definition ex_ops : list nop :=
  [NewChannel (0, 1); Setup (0, 1) true ex_g;
   AddBlock [mktx 1010 [(1001, 0); (1002, 0)] 2 NotCommitment];
   AddBlock [mktx 1020 [(1010, 1)] 2 NotCommitment];
   Forget (0, 1)] ++ repeat (AddBlock []) 99 ++ [RemoveBlock; Heartbeat; Restart; AddBlock []].
Example C15_nonvacuous :
  hist_admissible ex_p (init_node 0) ex_ops = true
  /\ (exists s s', nrun ex_p (init_node 0) ex_ops = Ok s
        /\ (exists a m gh, cfind (0, 1) (chans s) = Some (Ready ex_g a m true true gh) /\ is_done (m_state m) true = true)
        /\ step ex_p s Heartbeat = Ok (s', Done) /\ cfind (0, 1) (chans s') = None
        /\ step ex_p s' (NewChannel (1, 1)) = Ok (s', Refused EReuse)).
Proof.
  split; [vm_compute; reflexivity|].
  pose (s := match nrun ex_p (init_node 0) ex_ops with Ok s => s | Abort => init_node 0 end).
  pose (s' := match step ex_p s Heartbeat with Ok (s', _) => s' | Abort => s end).
  exists s, s'. split; [vm_compute; reflexivity|].
  split; [vm_compute; do 3 eexists; split; reflexivity|].
  split; [vm_compute; reflexivity|]. split; vm_compute; reflexivity.
Qed.

(** ... and it does survive the heartbeat one block earlier (the one in [ex_ops]) *)
Example C15_nonvacuous_survives :
  exists s, nrun ex_p (init_node 0) (firstn 106 ex_ops) = Ok s
    /\ (exists a m gh, cfind (0, 1) (chans s) = Some (Ready ex_g a m true true gh) /\ is_done (m_state m) true = false).
Proof. vm_compute. eexists. split; [reflexivity|]. do 3 eexists. split; reflexivity. Qed.

(** Preimages (Model/Prune.v, last section: blocks whose classification may need a preimage are
    resolved against what the signer knows when it decodes them).  With htlcs_fulfilled writing
    the node entry - the code as repaired - the signer's record of preimages, in memory and in
    the store, is exactly what it was handed, after every history, restarts included. *)
Theorem C15_preimages_durable :
  forall (p : params) (h : N) (ops : list pop) (s : pnode),
    prun true p (init_pnode h) ops = Ok s -> known s = given s /\ known_disk s = known s.
Proof. intros p h ops s. apply prun_pinv. split; reflexivity. Qed.
Print Assumptions C15_preimages_durable.

(** The code before that repair ([fulfill_flush = false]: htlcs_fulfilled recorded the preimage
    in memory only) violated the property.  Witness = the history that was replayed on the real
    signer (harness `prune`, scripted incoming-htlc-preimage-then-restart): a channel funded by
    the counterparty, the preimage of the HTLC they offer is handed over, restart, their
    commitment confirms with the HTLC pending (now classified without the preimage), only our main
    output is swept, forget, 100 blocks, heartbeat.  The channel is removed, although on the chain
    as it really is (classified with the preimage that WAS handed over) the monitor is not done:
    the HTLC output (1021, 1) is the node's to claim and unspent. *)
Definition old_g : cfg := mkcfg 1010 0 [].
Definition old_ops : list pop :=
  [PLift (NewChannel (0, 3)); PLift (Setup (0, 3) true old_g); PFulfill 7; PLift Restart;
   PAdd [mkptx 1010 [(3, 100)] 1 (PFixed NotCommitment)];
   PAdd [mkptx 1021 [(1010, 0)] 3 (PNeeds 7 (Commitment (Some 0) [1]) (Commitment (Some 0) []))];
   PAdd [mkptx 1030 [(1021, 0)] 1 (PFixed NotCommitment)];
   PLift (Forget (0, 3))] ++ repeat (PAdd []) 100.
Example C15_old_fulfill_not_persisted_refuted :
  exists s s' m,
    prun false ex_p (init_pnode 0) old_ops = Ok s
    /\ ready_cfg (0, 3) old_g (pn s)
    /\ pstep false ex_p s (PLift Heartbeat) = Ok (s', Done)
    /\ cfind (0, 3) (chans (pn s')) = None
    /\ In 7 (given s')
    /\ run_adds old_g (init_mon old_g 0) (true_chain s') = Ok m
    /\ is_done (m_state m) true = false
    /\ is_closing_swept (m_state m) = false.
Proof.
  pose (s := match prun false ex_p (init_pnode 0) old_ops with Ok s => s | Abort => init_pnode 0 end).
  pose (s' := match pstep false ex_p s (PLift Heartbeat) with Ok (s', _) => s' | Abort => s end).
  pose (m := match run_adds old_g (init_mon old_g 0) (true_chain s') with Ok m => m | Abort => init_mon old_g 0 end).
  exists s, s', m.
  split; [vm_compute; reflexivity|]. split; [vm_compute; do 5 eexists; reflexivity|].
  split; [vm_compute; reflexivity|]. split; [vm_compute; reflexivity|]. split; [vm_compute; left; reflexivity|].
  split; [vm_compute; reflexivity|]. split; vm_compute; reflexivity.
Qed.

(** the same history on the repaired code keeps the channel *)
Example C15_fulfill_persisted_keeps :
  exists s s', prun true ex_p (init_pnode 0) old_ops = Ok s
    /\ pstep true ex_p s (PLift Heartbeat) = Ok (s', Done) /\ ready_cfg (0, 3) old_g (pn s').
Proof.
  pose (s := match prun true ex_p (init_pnode 0) old_ops with Ok s => s | Abort => init_pnode 0 end).
  pose (s' := match pstep true ex_p s (PLift Heartbeat) with Ok (s', _) => s' | Abort => s end).
  exists s, s'. split; [vm_compute; reflexivity|]. split; [vm_compute; reflexivity|].
  vm_compute. do 5 eexists. reflexivity.
Qed.

Check C15_prune_sound.
Check C15_survives.
Check C15_hwm_monotone.
Check C15_no_reuse.

(** The decision "this channel's monitor is done" that every statement above rests on is the one
    in the source: Gen/MonitorGen.v is the statement-by-statement translation of
    [monitor::State::depth_of], [::deep_enough_and_saw_node_forget] and [::is_done]
    (vls-core/src/monitor.rs with its constant MIN_DEPTH, regenerated on every run by
    tools/gen_rustfn.py), and for every chain height below 2^32-1 it computes, in both build
    profiles, exactly the model's [Monitor.is_done]. *)
Theorem C15_done_decision_is_source :
  forall (prof : profile) (fr : MonitorGenProofs.mframe) (s : Monitor.state) (forgot : bool),
    Monitor.height s < U32MAX ->
    MonitorGen.gen_is_done prof (MonitorGenProofs.to_rms fr s forgot) = Val (Monitor.is_done s forgot).
Proof. exact MonitorGenProofs.gen_is_done_is_model. Qed.
Print Assumptions C15_done_decision_is_source.
