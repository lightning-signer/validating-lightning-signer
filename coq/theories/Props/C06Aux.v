(** Auxiliary theorems next to C06 (NOT deciding the property): the CLTV-delta rule of the payment
    check.  A change of the CLTV rule in /repo breaks these theorems but not C06: the check reports them
    under coverage.auxiliary and raises no alarm for them. *)
From Coq Require Import String List.
From Coq Require Permutation.
From VLS Require Import Base.U64.
From VLS Require Base.Rust Gen.CommitmentPolicyGen Gen.NodePaymentsGen.
From VLS Require Proofs.CltvRuleProofs.

(** The CLTV-delta rule of the source is enforced (policy-routing-cltv-delta), not only assumed.  The
    C06_payment_check_* theorems take the rule as a premise ([cltv_pass]) because Model/Payments.v
    has no CLTV values; the two theorems below state it directly over the translated source
    (Gen/NodePaymentsGen.v, regenerated from vls-core/src/node.rs and policy/simple_validator.rs on
    every run).  Whenever NodeState::validate_payments (whole body) accepts - for every state, every
    policy, every pair of summaries, every visiting order of the hash set and both build profiles -
    every hash of the two summaries whose payment record carries both bounds has
    outgoing_cltv_max < incoming_cltv_min and incoming_cltv_min - outgoing_cltv_max >= policy.cltv_delta
    (the tag not downgraded by the filter; the stored bounds are u32 as their field type says: with
    that the wrapped subtraction of a release build is never reached with incoming <= outgoing). *)
Theorem AUX_C06_cltv_rule_is_enforced_by_source :
  forall (prof : profile) (swarn : String.string -> bool) (gp : CommitmentPolicyGen.SimplePolicy)
         (ord : list N -> list N) (ns : NodePaymentsGen.NodeState) (ch : N)
         (im om : list (N * N)) (bd : NodePaymentsGen.BalanceDelta) (vid : N),
    (forall l, Permutation.Permutation (ord l) l) ->
    swarn "policy-routing-cltv-delta"%string = false ->
    CltvRuleProofs.bounds_u32 ns ->
    NodePaymentsGen.gen_NodeState_validate_payments prof swarn gp ord ns ch im om bd vid = Val (Rust.OkR tt) ->
    forall h, In h (Rust.set_extend (Rust.set_extend [] (Rust.map_keys im)) (Rust.map_keys om)) ->
      match Rust.map_get (NodePaymentsGen.NodeState_payments ns) h with
      | Some p =>
          match NodePaymentsGen.RoutedPayment_incoming_cltv_min p, NodePaymentsGen.RoutedPayment_outgoing_cltv_max p with
          | Some i, Some c => c < i /\ CommitmentPolicyGen.SimplePolicy_cltv_delta gp <= i - c
          | _, _ => True
          end
      | None => True
      end.
Proof. exact CltvRuleProofs.validate_payments_ok_cltv. Qed.
Print Assumptions AUX_C06_cltv_rule_is_enforced_by_source.

(** The same with the refusal made explicit: a record among the hashes whose stored bounds break the
    rule makes validate_payments answer something other than Ok - whatever the amounts are. *)
Theorem AUX_C06_cltv_violation_is_refused_by_source :
  forall (prof : profile) (swarn : String.string -> bool) (gp : CommitmentPolicyGen.SimplePolicy)
         (ord : list N -> list N) (ns : NodePaymentsGen.NodeState) (ch : N)
         (im om : list (N * N)) (bd : NodePaymentsGen.BalanceDelta) (vid : N)
         (h : N) (p : NodePaymentsGen.RoutedPayment) (i c : N),
    (forall l, Permutation.Permutation (ord l) l) ->
    swarn "policy-routing-cltv-delta"%string = false ->
    CltvRuleProofs.bounds_u32 ns ->
    In h (Rust.set_extend (Rust.set_extend [] (Rust.map_keys im)) (Rust.map_keys om)) ->
    Rust.map_get (NodePaymentsGen.NodeState_payments ns) h = Some p ->
    NodePaymentsGen.RoutedPayment_incoming_cltv_min p = Some i ->
    NodePaymentsGen.RoutedPayment_outgoing_cltv_max p = Some c ->
    (i <= c \/ i - c < CommitmentPolicyGen.SimplePolicy_cltv_delta gp) ->
    NodePaymentsGen.gen_NodeState_validate_payments prof swarn gp ord ns ch im om bd vid <> Val (Rust.OkR tt).
Proof. exact CltvRuleProofs.validate_payments_cltv_refuses. Qed.
Print Assumptions AUX_C06_cltv_violation_is_refused_by_source.

(** Booking only tightens the stored bounds: RoutedPayment::apply (whole body) never panics and never
    clears a bound, and a record that the rule refuses (for any delta) is still refused after it - so
    after any number of bookings. *)
Theorem AUX_C06_cltv_bounds_only_tighten :
  forall (prof : profile) (p : NodePaymentsGen.RoutedPayment) (ch i o : N) (ic oc : option N) (a b delta : N),
    NodePaymentsGen.RoutedPayment_incoming_cltv_min p = Some a ->
    NodePaymentsGen.RoutedPayment_outgoing_cltv_max p = Some b ->
    (a <= b \/ a - b < delta) ->
    exists p' a' b', NodePaymentsGen.gen_RoutedPayment_apply prof p ch i o ic oc = Val p' /\
      NodePaymentsGen.RoutedPayment_incoming_cltv_min p' = Some a' /\
      NodePaymentsGen.RoutedPayment_outgoing_cltv_max p' = Some b' /\
      (a' <= b' \/ a' - b' < delta).
Proof.
  intros prof p ch i o ic oc a b delta Ha Hb Hbad. rewrite NodePaymentsGenProofs.gen_apply_rec.
  destruct ic as [x|], oc as [y|]; eexists _, _, _; (split; [reflexivity|]);
    cbn [NodePaymentsGenProofs.apply_rec NodePaymentsGen.RoutedPayment_incoming_cltv_min NodePaymentsGen.RoutedPayment_outgoing_cltv_max];
    rewrite ?Ha, ?Hb; (split; [reflexivity | split; [reflexivity | lia]]).
Qed.
Print Assumptions AUX_C06_cltv_bounds_only_tighten.

(** Over every booking history of a record: [book] folds the translated RoutedPayment::apply over any
    sequence of bookings (channel, amounts, optional incoming / outgoing expiry).  Starting from a
    record whose bounds are the extrema of what was seen so far (a fresh RoutedPayment::new with
    nothing seen is one), it never panics, and afterwards incoming_cltv_min is a lower bound of every
    incoming expiry ever booked and is one of them, outgoing_cltv_max an upper bound of every outgoing
    expiry ever booked and one of them - for histories of any length. *)
Theorem AUX_C06_cltv_bounds_are_extrema_of_history :
  forall (prof : profile) (l : list CltvRuleProofs.booking) (p : NodePaymentsGen.RoutedPayment)
         (seen_in seen_out : list N),
    CltvRuleProofs.opt_all_ge (NodePaymentsGen.RoutedPayment_incoming_cltv_min p) seen_in ->
    CltvRuleProofs.opt_all_le (NodePaymentsGen.RoutedPayment_outgoing_cltv_max p) seen_out ->
    (forall m, NodePaymentsGen.RoutedPayment_incoming_cltv_min p = Some m -> In m seen_in) ->
    (forall m, NodePaymentsGen.RoutedPayment_outgoing_cltv_max p = Some m -> In m seen_out) ->
    exists p', CltvRuleProofs.book prof p l = Val p' /\
      let all_in := seen_in ++ CltvRuleProofs.somes (map CltvRuleProofs.b_ic l) in
      let all_out := seen_out ++ CltvRuleProofs.somes (map CltvRuleProofs.b_oc l) in
      CltvRuleProofs.opt_all_ge (NodePaymentsGen.RoutedPayment_incoming_cltv_min p') all_in /\
      CltvRuleProofs.opt_all_le (NodePaymentsGen.RoutedPayment_outgoing_cltv_max p') all_out /\
      (forall m, NodePaymentsGen.RoutedPayment_incoming_cltv_min p' = Some m -> In m all_in) /\
      (forall m, NodePaymentsGen.RoutedPayment_outgoing_cltv_max p' = Some m -> In m all_out).
Proof. exact CltvRuleProofs.book_bounds_are_extrema. Qed.
Print Assumptions AUX_C06_cltv_bounds_are_extrema_of_history.

(** Non-vacuity on the whole translated function: a state with a forwarded payment whose record has both
    bounds (policy.cltv_delta = 34).  Bounds (1050, 1000): accepted, so the premise of
    AUX_C06_cltv_rule_is_enforced_by_source is met by a record with both bounds; bounds (1030, 1000):
    refused with policy-routing-cltv-delta although the amounts balance. *)
Theorem AUX_C06_cltv_nonvacuous :
  NodePaymentsGen.gen_NodeState_validate_payments Debug (fun _ => false) CltvRuleProofs.ex_policy (fun l => l)
    (CltvRuleProofs.ex_state 1050 1000) 0 [(7, 100)] [] (NodePaymentsGen.mk_BalanceDelta 0 0) 0 = Val (Rust.OkR tt)
  /\
  NodePaymentsGen.gen_NodeState_validate_payments Debug (fun _ => false) CltvRuleProofs.ex_policy (fun l => l)
    (CltvRuleProofs.ex_state 1030 1000) 0 [(7, 100)] [] (NodePaymentsGen.mk_BalanceDelta 0 0) 0
    = Val (Rust.ErrR "policy-routing-cltv-delta"%string).
Proof.
  split; [exact (proj1 CltvRuleProofs.validate_payments_accepts_with_bounds)
         | exact (proj1 CltvRuleProofs.validate_payments_refuses_small_margin)].
Qed.
Print Assumptions AUX_C06_cltv_nonvacuous.
