(** C10 — a refused request changes nothing (for the chain tracker the statement is C13_reject_atomic of
    Props/C13.v). *)
From VLS Require Import Base.U64 Model.Enforcement Model.NodeOps Model.Payments
  Proofs.EnforcementProofs Proofs.RefusedProofs.
From VLS Require Model.Velocity Model.Tracker Proofs.TrackerProofs.

(** Channel enforcement state: for every reachable channel (memory image = persisted image),
    every request of the channel alphabet (direct and handler composites, any u64 numbers,
    both build profiles; [wf_refuse]: the validate-then-revoke composite with one payment
    verdict for both halves) under the default filter: a refusal leaves the memory image AND
    the persisted image exactly as they were — in particular nothing was written, so a
    transactional store has no pending mutation. *)
Theorem C10_channel_refused_changes_nothing :
  forall (warn : tag -> bool) (prof : profile),
    (forall t, warn t = false) ->
    forall (ch : chan) (o : op), wf_refuse o -> mem ch = disk ch ->
    st (snd (step warn prof (Ready ch) o)) = Refused ->
    fst (step warn prof (Ready ch) o) = Ready ch.
Proof. exact refused_changes_nothing. Qed.
Print Assumptions C10_channel_refused_changes_nothing.

(** A slot that is not set up is still not set up after a request it refuses. *)
Theorem C10_stub_refused_changes_nothing :
  forall (warn : tag -> bool) (prof : profile) (o : op),
    st (snd (step warn prof Stub o)) = Refused -> fst (step warn prof Stub o) = Stub.
Proof.
  intros warn prof o. rewrite <- (gstep_slot warn prof (Stub, ghost0)), gstep_stub.
  destruct o; try reflexivity. discriminate.
Qed.
Print Assumptions C10_stub_refused_changes_nothing.

(** Node-level requests (new / setup / forget channel, heartbeat, allowlist edits, approvals,
    refused channel requests): a refusal returns the node it was given, both images. *)
Theorem C10_node_refused_changes_nothing :
  forall (s : nnode) (o : nop), snd (nstep s o) = false -> fst (nstep s o) = s.
Proof. exact nstep_refused. Qed.
Print Assumptions C10_node_refused_changes_nothing.

(** In particular the table of issued invoices: a SignInvoice for a payment hash that already has
    an issued invoice leaves the table (and everything else) as it was, whether it is the same
    invoice again (signed again) or another one (refused). *)
Theorem C10_issued_invoice_is_never_replaced :
  forall (s : nnode) (h a a' : N),
    iss (nmem s) h = Some a' ->
    fst (nstep s (IssueInvoice h a)) = s /\
    (a <> a' -> snd (nstep s (IssueInvoice h a)) = false).
Proof.
  intros s h a a' Hi. cbn [nstep]. destruct (MAX_INV <=? iss_count (iss (nmem s))).
  - split; [reflexivity | intros _; reflexivity].
  - rewrite Hi. cbn [fst snd]. split; [reflexivity|]. intros Hne. apply N.eqb_neq. congruence.
Qed.
Print Assumptions C10_issued_invoice_is_never_replaced.

(** Payment bookkeeping: a refused commitment update leaves invoices, payment records, ledger
    and channel contents as they were. *)
Theorem C10_payments_refused_changes_nothing :
  forall (nch : nat) (mf mp : N) (s : pnode) (o : pop),
    snd (pstep nch mf mp s o) = false -> fst (pstep nch mf mp s o) = s.
Proof. exact pstep_refused. Qed.
Print Assumptions C10_payments_refused_changes_nothing.

(** Velocity control: a refused insert records no amount; what it leaves is the control
    advanced to the request's time (bucket rotation by the clock is not a change of the
    recorded amounts), and the node does not write it. *)
Theorem C10_velocity_refused_records_nothing :
  forall (c : Velocity.vc) (now amt : N),
    snd (Velocity.insert c now amt) = false -> fst (Velocity.insert c now amt) = Velocity.advance c now.
Proof.
  intros c now amt. unfold Velocity.insert.
  destruct (Velocity.limit (Velocity.advance c now) <? sat_add (Velocity.velocity (Velocity.advance c now)) amt); cbn [fst snd];
    [reflexivity | discriminate].
Qed.
Print Assumptions C10_velocity_refused_records_nothing.

(** Chain tracker, as C13_reject_atomic — a refused add / remove leaves tip, height,
    remembered headers, watches and monitor states as before. *)
Theorem C10_tracker_refused_changes_nothing :
  forall (c : Tracker.cfg) (s0 : Tracker.tstate) (rs : list Tracker.req),
    Forall (fun '(s, r, s', res) =>
              forall e, res = Tracker.Err e -> Tracker.view s' = Tracker.view s /\ s' = Tracker.settled r s)
           (Tracker.steps Tracker.fixed c s0 rs).
Proof. intros c s0 rs. apply TrackerProofs.history_err_atomic. Qed.
Print Assumptions C10_tracker_refused_changes_nothing.

(** Non-vacuity: refusals of every kind on a non-trivial channel. *)
Definition c10_ch : chan :=
  match fst (grun strict Release (Stub, ghost0)
               [Setup; ValidateHolder 0 0 true true; Activate; ValidateHolder 1 4 true true]) with
  | Ready ch => ch
  | Stub => mkC fresh_estate fresh_estate
  end.
Definition c10_probe (o : op) : Prop :=
  st (snd (step strict Release (Ready c10_ch) o)) = Refused /\
  fst (step strict Release (Ready c10_ch) o) = Ready c10_ch.

Example C10_nonvacuous :
  mem c10_ch = disk c10_ch /\ next_h (mem c10_ch) = 1 /\ nxt_h (mem c10_ch) = Some 4 /\
  c10_probe (Revoke 3 true) /\ c10_probe (GetSecret 0) /\ c10_probe (ValidateHolder 0 1 true true) /\
  c10_probe (ValidateHolder 1 5 false true) /\ c10_probe (SignHolder 5) /\
  c10_probe (HValidateNew 2 5 true true) /\ c10_probe (HRevoke 18446744073709551615 true) /\
  c10_probe (SignCp 2 1002 4 true) /\ c10_probe (ValidateRevocation 0 1000 0 true).
Proof. unfold c10_probe, c10_ch. vm_compute. repeat split. Qed.

(** The pre-repair revocation stored the counterparty secret before the counter guard refused
    the request (revocation of the current, not yet superseded commitment). *)
Example C10_old_revocation_refuted :
  let ops := [Setup; SignCp 0 1000 0 true] in
  match fst (grun strict Debug (Stub, ghost0) ops) with
  | Ready ch =>
      st (snd (do_revocation_old strict ch 0 1000 0 true)) = Refused /\
      secrets (mem (fst (do_revocation_old strict ch 0 1000 0 true))) <> secrets (mem ch)
  | Stub => False
  end.
Proof. vm_compute. split; [reflexivity | discriminate]. Qed.

(** The pre-repair allowlist edit applied the entries before the unparsable one. *)
Example C10_old_allowlist_refuted :
  snd (add_allow_old_partial ninit 1) = false /\
  allow (nmem (fst (add_allow_old_partial ninit 1))) 1 <> allow (nmem ninit) 1.
Proof. vm_compute. split; [reflexivity | discriminate]. Qed.
