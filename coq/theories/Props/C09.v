(** C09 — sweep and second-level HTLC signatures only move funds back to the node.

    The model describes the three sweep validators with the sequence check on the input that
    is being signed (notes/fixes/C09-sweep-sequence-of-signed-input.patch, in /repo as cea86ea);
    [C09_first_input_sequence_refuted] keeps the witness against the code as found, which
    read [tx.input[0]] whatever input the signature was for, and
    [C09_sweep_accept_as_found_input0] is what held of that code. *)
From VLS Require Import Base.U64 Model.CommitmentPolicy Model.Sweep Model.SweepCheck Proofs.SweepProofs.

(** For every transaction (any number of inputs and outputs), input index, wallet, wallet path,
    channel setup, chain height, build profile and filter that does not downgrade the
    destination tag: a delayed-output, counterparty-HTLC or justice sweep signing request is
    answered Ok only if every output pays a script the wallet can spend under the supplied path
    or an allowlisted one, the version is 2, the lock time is a height lock of at most the
    current height + 2 or the always-satisfied minimum timestamp (counterparty received HTLC:
    at most the expiry its script commits to), and the sequence of the signed input is the
    counterparty-selected contest delay (delayed), 1 with anchors resp. one of the three
    no-relative-lock values without (counterparty HTLC), one of those three values (justice). *)
Theorem C09_sweep_accept :
  forall (prof : profile) (warn : stag -> bool) (w : wallet) (s : setup) (h : N) (t : tx)
         (input path : N),
    warn S_destination = false ->
    (forall cn nh,
       sign_delayed_sweep SignedInput prof warn w s h t input cn nh path = SOk ->
       AllOutputsOwned w path t /\ tx_version t = 2 /\ LocktimeBound h (tx_locktime t) /\
       signed_seq t input = Some (cp_delay s)) /\
    (forall rs,
       sign_counterparty_htlc_sweep SignedInput prof warn w s h t rs input path = SOk ->
       AllOutputsOwned w path t /\ tx_version t = 2 /\
       CpHtlcLocktimeBound (is_anchors (commitment_type s)) h rs (tx_locktime t) /\
       exists sq, signed_seq t input = Some sq /\
                  CpHtlcSequenceBound (is_anchors (commitment_type s)) sq) /\
    (sign_justice_sweep SignedInput prof warn w h t input path = SOk ->
     AllOutputsOwned w path t /\ tx_version t = 2 /\ LocktimeBound h (tx_locktime t) /\
     exists sq, signed_seq t input = Some sq /\ no_relative_lock sq).
Proof.
  intros prof warn w s h t input path Hw. split; [|split].
  - intros cn nh S. apply sign_delayed_through in S. destruct S as (_ & _ & S).
    apply delayed_accept in S; assumption.
  - intros rs S. apply sign_cp_htlc_through in S. destruct S as (_ & S).
    apply cp_htlc_accept in S; assumption.
  - intros S. apply sign_justice_through in S. destruct S as (_ & S).
    apply justice_accept in S; assumption.
Qed.
Print Assumptions C09_sweep_accept.

(** The same for the validator entry points themselves (reached through the Validator trait). *)
Theorem C09_sweep_accept_validator :
  forall prof warn w h t input path,
    warn S_destination = false ->
    (forall cpd,
       validate_delayed_sweep SignedInput prof warn w cpd h t input path = SOk ->
       AllOutputsOwned w path t /\ tx_version t = 2 /\ LocktimeBound h (tx_locktime t) /\
       signed_seq t input = Some cpd) /\
    (forall anchors rs,
       validate_counterparty_htlc_sweep SignedInput prof warn w anchors h t rs input path = SOk ->
       AllOutputsOwned w path t /\ tx_version t = 2 /\
       CpHtlcLocktimeBound anchors h rs (tx_locktime t) /\
       exists sq, signed_seq t input = Some sq /\ CpHtlcSequenceBound anchors sq) /\
    (validate_justice_sweep SignedInput prof warn w h t input path = SOk ->
     AllOutputsOwned w path t /\ tx_version t = 2 /\ LocktimeBound h (tx_locktime t) /\
     exists sq, signed_seq t input = Some sq /\ no_relative_lock sq).
Proof.
  intros prof warn w h t input path Hw. split; [|split].
  - intros cpd S. apply delayed_accept in S; assumption.
  - intros anchors rs S. apply cp_htlc_accept in S; assumption.
  - intros S. apply justice_accept in S; assumption.
Qed.
Print Assumptions C09_sweep_accept_validator.

(** For an arbitrary filter: version, lock time and sequence are never downgraded
    ([transaction_format_err!]), a wallet error on any output refuses, and only the
    destination check can be missing — when its own tag is downgraded. *)
Theorem C09_sweep_any_filter :
  forall prof warn w s h t input path cn nh,
    sign_delayed_sweep SignedInput prof warn w s h t input cn nh path = SOk ->
    tx_version t = 2 /\ LocktimeBound h (tx_locktime t) /\
    signed_seq t input = Some (cp_delay s) /\
    Forall (fun o => can_spend w path (out_spk o) <> WalletError) (tx_outs t) /\
    (warn S_destination = false -> AllOutputsOwned w path t).
Proof.
  intros prof warn w s h t input path cn nh S.
  apply sign_delayed_through in S. destruct S as (_ & _ & S).
  apply delayed_facts in S. destruct S as (V & O & L & Q).
  repeat split; auto.
  - eapply outputs_loop_no_wallet_error; eassumption.
  - intros Hw. eapply outputs_loop_owned; eassumption.
Qed.

(** The lock-time bound read through rust-bitcoin's own predicate: exactly the lock times that
    [is_satisfied_by] accepts at height h + 2 for every block time. *)
Theorem C09_locktime_bound_is_final :
  forall h lt, LocktimeBound h lt <-> LocktimeFinal h lt.
Proof. intros h lt. split; [apply LocktimeBound_final | apply LocktimeFinal_bound]. Qed.

(** an Ok from either caller (holder: any way of naming the per-commitment point) *)
Definition htlc_accepted (spk : N -> N -> N -> N) (H : Type) (sighash : covered -> H)
    (H_eqb : H -> H -> bool) prof warn pol (is_cp : bool) s rev delayed t rs_id rs amount : Prop :=
  if is_cp then
    sign_counterparty_htlc_tx spk H sighash H_eqb prof warn pol s rev delayed t rs_id rs amount = SOk
  else
    exists given cn nh,
      sign_holder_htlc_tx spk H sighash H_eqb prof warn pol s given cn nh rev delayed t rs_id rs
        amount = SOk.

(** Premises on the parameters: the signature hash is injective on the fields the BIP143
    preimage commits to, and hash equality is equality.  For every request of either caller
    ([htlc_accepted]), every transaction, redeemscript descriptor, amount, policy and profile,
    under a filter that does not downgrade the fee-range tag, for every commitment type but the
    non-zero-fee anchors one: an Ok means the fields covered by the sighash type in use (ALL
    without anchors, SINGLE|ANYONECANPAY with) are those of the BOLT-3 HTLC-timeout /
    HTLC-success transaction spending the same outpoint, for the HTLC kind of the redeemscript,
    with the broadcaster's negotiated delay, the revocation key and the delayed key of the
    request's per-commitment point, at a fee rate [r] within policy whose BOLT-3 fee is exactly
    the fee the transaction pays. *)
Theorem C09_htlc_accept :
  forall (spk : N -> N -> N -> N) (H : Type) (sighash : covered -> H) (H_eqb : H -> H -> bool),
    (forall a b, H_eqb a b = true -> a = b) ->
    (forall a b, sighash a = sighash b -> a = b) ->
    forall prof warn pol is_cp s rev delayed t rs_id rs amount,
      warn H_fee_range = false ->
      amount_fits prof amount ->
      commitment_type s <> Anchors ->
      htlc_accepted spk H sighash H_eqb prof warn pol is_cp s rev delayed t rs_id rs amount ->
      let c := commitment_type s in
      exists i0 o0 offered r,
        nthN (tx_ins t) 0 = Some i0 /\ nthN (tx_outs t) 0 = Some o0 /\
        htlc_kind rs (is_anchors c) = Some offered /\
        (if is_zero_fee_htlc c then r = 0 else min_feerate pol <= r <= max_feerate pol) /\
        out_value o0 + bolt3_htlc_fee c offered r = amount /\
        (warn H_locktime = false -> offered = true -> tx_locktime t <> 0) /\
        covered_fields (sh_of c) t 0 rs_id amount <> None /\
        covered_fields (sh_of c) t 0 rs_id amount =
        covered_fields (sh_of c)
          (canon_htlc_tx spk c (prev_txid i0) (prev_vout i0) offered (tx_locktime t) amount r
                         (self_delay is_cp s) rev delayed) 0 rs_id amount.
Proof.
  intros spk H sighash H_eqb He Hi prof warn pol is_cp s rev delayed t rs_id rs amount Hw Hfit Hc A c.
  subst c.
  assert (S : sign_htlc_tx spk H sighash H_eqb prof warn pol is_cp s rev delayed t rs_id rs amount = SOk).
  { destruct is_cp; cbn [htlc_accepted] in A; [exact A|].
    destruct A as (given & cn & nh & A). apply sign_holder_through in A. tauto. }
  apply sign_htlc_tx_split in S. destruct S as (fr & off & cl & D & V).
  apply (decode_ok spk H sighash H_eqb He Hi) in D.
  destruct D as (i0 & o0 & fee & m & rec & I & O & K & CL & FE & FR & M & B & CV & NN).
  apply validate_htlc_tx_ok in V. destruct V as [VL VF]. specialize (VF Hw).
  destruct VF as [Vmin Vmax].
  pose proof (msat_roundtrip _ _ _ Hfit M) as RT.
  subst cl.
  apply build_is_canon with (amount := amount) in B; auto.
  destruct B as [B Fle]. subst rec.
  exists i0, o0, off, fr.
  repeat split; auto.
  - destruct (is_zero_fee_htlc (commitment_type s)) eqn:Z; [exact FR|]. split; [auto | exact Vmax].
  - (* the fee paid is the BOLT-3 fee at rate fr: the output value is a covered field *)
    destruct (covered_canon_inv _ _ _ _ _ _ _ _ _ _ _ _ _ _ _ I O CV) as (_ & _ & _ & Hv & _).
    clear - Hv Fle. lia.
  - intros Hl Ho. specialize (VL Hl Ho). subst off. exact VL.
Qed.
Print Assumptions C09_htlc_accept.

(** The same, field by field: version 2; HTLC-success has lock time 0; the spent input's
    sequence is 1 with anchors and 0 without; output 0 pays the revokeable script of the
    negotiated delay, revocation key and delayed key, and amount minus the BOLT-3 fee at an
    in-range rate; without anchors (SIGHASH_ALL) there is no other input and no other output. *)
Theorem C09_htlc_accept_fields :
  forall (spk : N -> N -> N -> N) (H : Type) (sighash : covered -> H) (H_eqb : H -> H -> bool),
    (forall a b, H_eqb a b = true -> a = b) ->
    (forall a b, sighash a = sighash b -> a = b) ->
    forall prof warn pol is_cp s rev delayed t rs_id rs amount,
      warn H_fee_range = false ->
      amount_fits prof amount ->
      commitment_type s <> Anchors ->
      htlc_accepted spk H sighash H_eqb prof warn pol is_cp s rev delayed t rs_id rs amount ->
      let c := commitment_type s in
      exists i0 o0 offered r,
        nthN (tx_ins t) 0 = Some i0 /\ nthN (tx_outs t) 0 = Some o0 /\
        htlc_kind rs (is_anchors c) = Some offered /\
        (if is_zero_fee_htlc c then r = 0 else min_feerate pol <= r <= max_feerate pol) /\
        tx_version t = 2 /\
        (offered = false -> tx_locktime t = 0) /\
        in_seq i0 = (if is_anchors c then 1 else 0) /\
        out_spk o0 = spk rev (self_delay is_cp s) delayed /\
        out_value o0 + bolt3_htlc_fee c offered r = amount /\
        (is_anchors c = false -> tx_ins t = [i0] /\ tx_outs t = [o0]).
Proof.
  intros spk H sighash H_eqb He Hi prof warn pol is_cp s rev delayed t rs_id rs amount
         Hw Hf Hc A c.
  destruct (C09_htlc_accept spk H sighash H_eqb He Hi _ _ _ _ _ _ _ _ _ _ _ Hw Hf Hc A)
    as (i0 & o0 & off & r & I & O & K & R & F & L & NN & CV).
  destruct (covered_canon_inv _ _ _ _ _ _ _ _ _ _ _ _ _ _ _ I O CV) as (G1 & G2 & G3 & _ & G4 & G5).
  exists i0, o0, off, r. repeat split; try assumption; try (apply G5; assumption).
  intros ->. exact G2.
Qed.
Print Assumptions C09_htlc_accept_fields.

(** an in-range estimate of [estimate_feerate_per_kw] is the exact rate of the fee *)
Theorem C09_feerate_exact :
  forall fee w, 0 < w -> w <= 1000 -> estimate_feerate_per_kw fee w < U32MAX ->
    estimate_feerate_per_kw fee w * w / 1000 = fee.
Proof.
  unfold estimate_feerate_per_kw. intros fee w Hw Hw2 H.
  rewrite N.min_l in * by lia. clear H.
  pose proof (N.mul_div_le (fee * 1000 + 999) w ltac:(lia)) as L.
  pose proof (N.mul_succ_div_gt (fee * 1000 + 999) w ltac:(lia)) as U. rewrite N.mul_succ_r in U.
  set (q := (fee * 1000 + 999) / w) in *. clearbody q.
  (* fee*1000 <= q*w <= fee*1000 + 999 *)
  symmetry. apply N.div_unique with (r := q * w - fee * 1000); lia.
Qed.

(** script 10 is the wallet's under path 7, script 11 is allowlisted, everything else foreign *)
Definition w_ex : wallet :=
  mkWallet (fun p s => if (p =? 7) && (s =? 10) then CanSpend else CannotSpend)
           (fun s _ => s =? 11).
Definition s_ex (c : ctype) : setup := mkSetup true 3000000 0 6 7 c 0.

(** three-output, two-input sweeps signed for input 1, lock times on the bound, both kinds of
    counterparty HTLC, anchors on and off; the minimum timestamp as lock time *)
Example C09_sweep_nonvacuous :
  let outs := [mkOut 1000 10; mkOut 2000 11; mkOut 3000 10] in
  sign_delayed_sweep SignedInput Debug sstrict w_ex (s_ex StaticRemoteKey) 800000
    (mkTx 2 800002 [mkIn 1 0 0; mkIn 2 4 7] outs) 1 53 53 7 = SOk /\
  sign_delayed_sweep SignedInput Release sstrict w_ex (s_ex StaticRemoteKey) 800000
    (mkTx 2 500000000 [mkIn 2 4 7] outs) 0 54 53 7 = SOk /\
  sign_counterparty_htlc_sweep SignedInput Debug sstrict w_ex (s_ex AnchorsZeroFeeHtlc) 800000
    (mkTx 2 800100 [mkIn 1 0 0; mkIn 2 4 1] outs) (RS_received true false 800100) 1 7 = SOk /\
  sign_counterparty_htlc_sweep SignedInput Debug sstrict w_ex (s_ex StaticRemoteKey) 800000
    (mkTx 2 800002 [mkIn 2 4 4294967293] outs) (RS_offered false) 0 7 = SOk /\
  sign_justice_sweep SignedInput Debug sstrict w_ex 800000
    (mkTx 2 0 [mkIn 1 0 5; mkIn 2 4 4294967295] outs) 1 7 = SOk.
Proof. vm_compute. repeat split. Qed.

(** and each bound is tight: one past it is refused *)
Example C09_sweep_bounds_tight :
  let outs := [mkOut 1000 10; mkOut 2000 11] in
  sign_delayed_sweep SignedInput Debug sstrict w_ex (s_ex StaticRemoteKey) 800000
    (mkTx 2 800003 [mkIn 2 4 7] outs) 0 53 53 7 = SErr S_locktime /\
  sign_delayed_sweep SignedInput Debug sstrict w_ex (s_ex StaticRemoteKey) 800000
    (mkTx 2 500000001 [mkIn 2 4 7] outs) 0 53 53 7 = SErr S_locktime /\
  sign_delayed_sweep SignedInput Debug sstrict w_ex (s_ex StaticRemoteKey) 800000
    (mkTx 2 0 [mkIn 2 4 8] outs) 0 53 53 7 = SErr S_sequence /\
  sign_delayed_sweep SignedInput Debug sstrict w_ex (s_ex StaticRemoteKey) 800000
    (mkTx 2 0 [mkIn 2 4 7] (outs ++ [mkOut 1 12])) 0 53 53 7 = SErr S_destination /\
  sign_delayed_sweep SignedInput Debug sstrict w_ex (s_ex StaticRemoteKey) 800000
    (mkTx 2 0 [mkIn 2 4 7] outs) 0 53 53 8 = SErr S_destination /\
  sign_delayed_sweep SignedInput Debug sstrict w_ex (s_ex StaticRemoteKey) 800000
    (mkTx 3 0 [mkIn 2 4 7] outs) 0 53 53 7 = SErr S_version /\
  sign_counterparty_htlc_sweep SignedInput Debug sstrict w_ex (s_ex StaticRemoteKey) 800000
    (mkTx 2 800101 [mkIn 2 4 0] outs) (RS_received false false 800100) 0 7 = SErr S_locktime.
Proof. vm_compute. repeat split. Qed.

(** second-level HTLC transactions; the signature hash is the identity on the covered fields,
    which satisfies the two premises of [C09_htlc_accept] *)
Definition spk_ex (r d k : N) : N := 1000000 * r + 1000 * d + k.
Definition pol_h : policy := mkPol 144 2016 1000000001 1000 16777216 true 253 25000.
Definition hsign_holder prof pol s :=
  sign_holder_htlc_tx spk_ex covered (fun x => x) cov_eqb prof sstrict pol s.
Definition hsign_cp prof pol s :=
  sign_counterparty_htlc_tx spk_ex covered (fun x => x) cov_eqb prof sstrict pol s.

Example C09_htlc_premises_satisfiable :
  (forall a b, cov_eqb a b = true -> a = b) /\
  (forall a b : covered, (fun x => x) a = (fun x => x) b -> a = b).
Proof. split; [exact cov_eqb_true | auto]. Qed.

(** HTLC-timeout of our own commitment without anchors at the minimum rate (fee 253*663/1000),
    HTLC-success of the counterparty's commitment with zero-fee anchors and a second input and
    output riding along under SINGLE|ANYONECANPAY, HTLC-success without anchors at rate 24999 (the
    estimator attributes a fee to the highest rate that produces it) *)
Example C09_htlc_nonvacuous :
  hsign_holder Debug pol_h (s_ex StaticRemoteKey) false 54 53 1 2
    (mkTx 2 800144 [mkIn 77 3 0] [mkOut (1000000 - 167) (spk_ex 1 7 2)])
    500 (RS_offered false) 1000000 = SOk /\
  hsign_cp Release pol_h (s_ex AnchorsZeroFeeHtlc) 1 2
    (mkTx 2 0 [mkIn 77 3 1; mkIn 99 0 5] [mkOut 1000000 (spk_ex 1 6 2); mkOut 555 9])
    501 (RS_received true false 800144) 1000000 = SOk /\
  hsign_cp Debug pol_h (s_ex StaticRemoteKey) 1 2
    (mkTx 2 0 [mkIn 77 3 0] [mkOut (1000000 - 17574) (spk_ex 1 6 2)])
    502 (RS_received false false 800144) 1000000 = SOk.
Proof. vm_compute. repeat split. Qed.

(** one field off the BOLT-3 transaction and the request is refused: delay, revocation key,
    delayed key, sequence, version, lock time of an HTLC-success, a second output under
    SIGHASH_ALL, a fee one satoshi off a BOLT-3 fee, a rate below the minimum / above the maximum *)
Example C09_htlc_bounds_tight :
  let sign t := hsign_cp Debug pol_h (s_ex StaticRemoteKey) 1 2 t 502 (RS_received false false 800144)
                  1000000 in
  let v := 1000000 - 17574 in
  sign (mkTx 2 0 [mkIn 77 3 0] [mkOut v (spk_ex 1 7 2)]) = SErr H_mismatch /\
  sign (mkTx 2 0 [mkIn 77 3 0] [mkOut v (spk_ex 3 6 2)]) = SErr H_mismatch /\
  sign (mkTx 2 0 [mkIn 77 3 0] [mkOut v (spk_ex 1 6 3)]) = SErr H_mismatch /\
  sign (mkTx 2 0 [mkIn 77 3 1] [mkOut v (spk_ex 1 6 2)]) = SErr H_mismatch /\
  sign (mkTx 1 0 [mkIn 77 3 0] [mkOut v (spk_ex 1 6 2)]) = SErr H_mismatch /\
  sign (mkTx 2 5 [mkIn 77 3 0] [mkOut v (spk_ex 1 6 2)]) = SErr H_mismatch /\
  sign (mkTx 2 0 [mkIn 77 3 0] [mkOut v (spk_ex 1 6 2); mkOut 0 10]) = SErr H_mismatch /\
  sign (mkTx 2 0 [mkIn 77 3 0] [mkOut (1000000 - 176) (spk_ex 1 6 2)]) = SErr H_fee_range /\
  sign (mkTx 2 0 [mkIn 77 3 0] [mkOut (1000000 - 17575) (spk_ex 1 6 2)]) = SErr H_fee_range /\
  sign (mkTx 2 0 [mkIn 77 3 0] [mkOut 1000001 (spk_ex 1 6 2)]) = SErr H_fee_underflow.
Proof. vm_compute. repeat split. Qed.

(** [validate_{delayed,counterparty_htlc,justice}_sweep] read [tx.input[0].sequence] while the
    signature is produced for [tx.input[input]].  With two inputs and input 1 signed, a delayed
    sweep whose signed input carries sequence 42 (contest delay 7), and a justice sweep whose
    signed input carries a 65535-block relative lock, are accepted; the other way round, the
    well-formed sweep whose input 0 is another channel's output is refused. *)
Example C09_first_input_sequence_refuted :
  exists t1 t2 t3 input,
    sign_delayed_sweep FirstInput Debug sstrict w_ex (s_ex StaticRemoteKey) 800000 t1 input 53 53 7 = SOk /\
    signed_seq t1 input <> Some (cp_delay (s_ex StaticRemoteKey)) /\
    sign_delayed_sweep SignedInput Debug sstrict w_ex (s_ex StaticRemoteKey) 800000 t1 input 53 53 7
      = SErr S_sequence /\
    sign_justice_sweep FirstInput Debug sstrict w_ex 800000 t2 input 7 = SOk /\
    signed_seq t2 input = Some 65535 /\ ~ no_relative_lock 65535 /\
    sign_delayed_sweep FirstInput Debug sstrict w_ex (s_ex StaticRemoteKey) 800000 t3 input 53 53 7
      = SErr S_sequence /\
    sign_delayed_sweep SignedInput Debug sstrict w_ex (s_ex StaticRemoteKey) 800000 t3 input 53 53 7
      = SOk.
Proof.
  exists (mkTx 2 0 [mkIn 1 0 7; mkIn 2 4 42] [mkOut 1000 10]),
         (mkTx 2 0 [mkIn 1 0 0; mkIn 2 4 65535] [mkOut 1000 10]),
         (mkTx 2 0 [mkIn 1 0 0; mkIn 2 4 7] [mkOut 1000 10]), 1.
  vm_compute. repeat split; try congruence.
  intros [A|[A|A]]; discriminate.
Qed.

(** what does hold of the code as found: everything else, and the sequence bound for input 0 *)
Theorem C09_sweep_accept_as_found_input0 :
  forall prof warn w s h t input path,
    warn S_destination = false ->
    (forall cn nh,
       sign_delayed_sweep FirstInput prof warn w s h t input cn nh path = SOk ->
       AllOutputsOwned w path t /\ tx_version t = 2 /\ LocktimeBound h (tx_locktime t) /\
       (input = 0 -> signed_seq t input = Some (cp_delay s))) /\
    (forall rs,
       sign_counterparty_htlc_sweep FirstInput prof warn w s h t rs input path = SOk ->
       AllOutputsOwned w path t /\ tx_version t = 2 /\
       CpHtlcLocktimeBound (is_anchors (commitment_type s)) h rs (tx_locktime t) /\
       (input = 0 -> exists sq, signed_seq t input = Some sq /\
                                CpHtlcSequenceBound (is_anchors (commitment_type s)) sq)) /\
    (sign_justice_sweep FirstInput prof warn w h t input path = SOk ->
     AllOutputsOwned w path t /\ tx_version t = 2 /\ LocktimeBound h (tx_locktime t) /\
     (input = 0 -> exists sq, signed_seq t input = Some sq /\ no_relative_lock sq)).
Proof.
  intros prof warn w s h t input path Hw. split; [|split].
  - intros cn nh S. apply sign_delayed_through in S. destruct S as (_ & _ & S).
    apply delayed_accept in S; [|assumption]. destruct S as (A & B & C & D).
    repeat split; auto. intros ->. exact D.
  - intros rs S. apply sign_cp_htlc_through in S. destruct S as (_ & S).
    apply cp_htlc_accept in S; [|assumption]. destruct S as (A & B & C & D).
    repeat split; auto. intros ->. exact D.
  - intros S. apply sign_justice_through in S. destruct S as (_ & S).
    apply justice_accept in S; [|assumption]. destruct S as (A & B & C & D).
    repeat split; auto. intros ->. exact D.
Qed.
Print Assumptions C09_sweep_accept_as_found_input0.

(** CommitmentType::Anchors (not a safe type: validate_setup_channel refuses it, C05_setup) sets
    the non-zero-fee anchor bit, which LDK's builders do not implement: the recomposition keeps
    sequence 0 and the non-anchor weight while the signature is SINGLE|ANYONECANPAY; BOLT-3
    asks for sequence 1 *)
Example C09_htlc_anchors_nonzero_fee_deviates :
  hsign_cp Debug pol_h (s_ex Anchors) 1 2
    (mkTx 2 0 [mkIn 77 3 0] [mkOut (1000000 - 703) (spk_ex 1 6 2)])
    502 (RS_received true false 800144) 1000000 = SOk /\
  hsign_cp Debug pol_h (s_ex Anchors) 1 2
    (mkTx 2 0 [mkIn 77 3 1] [mkOut (1000000 - 706) (spk_ex 1 6 2)])
    502 (RS_received true false 800144) 1000000 = SErr H_mismatch.
Proof. vm_compute. repeat split. Qed.

(** release builds wrap [htlc_amount_sat * 1000]: above 2^64/1000 sat the zero-fee recomposition
    pays the wrapped amount; debug builds panic *)
Example C09_htlc_release_amount_wrap :
  let amount := 18446744073709552 + 1000000 in
  let t := mkTx 2 0 [mkIn 77 3 1] [mkOut 1000000 (spk_ex 1 6 2)] in
  hsign_cp Release pol_h (s_ex AnchorsZeroFeeHtlc) 1 2 t 501 (RS_received true false 800144) amount
    = SOk /\
  hsign_cp Debug pol_h (s_ex AnchorsZeroFeeHtlc) 1 2 t 501 (RS_received true false 800144) amount
    = SPanic /\
  ~ amount_fits Release amount.
Proof.
  split; [vm_compute; reflexivity|]. split; [vm_compute; reflexivity|].
  intros [A|A]; [discriminate|]. vm_compute in A. apply A. reflexivity.
Qed.

Check C09_sweep_accept.
Check C09_htlc_accept.
Check C09_htlc_accept_fields.

(** The feerate estimate by which the HTLC-transaction decoder recovers the feerate in the sweep model is the one in the source.  Gen/TxUtilGen.v is the statement-by-statement translation of [estimate_feerate_per_kw]
    (vls-core/src/util/transaction_utils.rs, regenerated on every run by tools/gen_rustfn.py): for
    every u64 fee and every non-zero weight it returns, in both build profiles, the model's value. *)
From VLS Require Gen.TxUtilGen Proofs.TxUtilGenProofs.
Theorem C09_feerate_estimate_is_source :
  forall (prof : profile) (fee w : N),
    fee <= U64MAX -> 0 < w ->
    TxUtilGen.gen_estimate_feerate_per_kw prof fee w = Val (CommitmentPolicy.estimate_feerate_per_kw fee w).
Proof. exact TxUtilGenProofs.gen_estimate_is_model. Qed.
Print Assumptions C09_feerate_estimate_is_source.

(** The three sweep validators modelled above are the ones in the source.  Gen/SweepGen.v is the
    statement-by-statement translation (tools/gen_rustfn.py, regenerated on every run) of
    SimpleValidator::validate_sweep (version, then every output: wallet error, spendable by the
    wallet under the path, allowlisted, else policy-sweep-destination-allowlisted through the filter),
    ::validate_delayed_sweep and ::validate_justice_sweep (whole bodies: the common validation, the
    lock time against current_height + MAX_CHAIN_LAG, the sequence of the input being signed against
    the counterparty-selected delay resp. NON_ANCHOR_SEQS), with MAX_CHAIN_LAG and the sequence sets
    read from the file.  What lives outside the validator is a parameter of the translation and is
    instantiated here with the model's reading of it: the wallet's answers ([spend_fn], [allow_fn] of
    the model's wallet), and rust-bitcoin's Version::TWO = 2, Time::MIN, Height::from_consensus
    ([height_fn]: a height below 500000000) and LockTime::is_satisfied_by.  For every model
    transaction (as the source-level transaction [conc_tx t]), wallet, filter and both build profiles
    the generated function answers what the model answers, panics included.  transaction_format_err!
    ignores its tag argument: the four format classes of the model (version, locktime, sequence,
    other) are one tag in the source ([err_tag], via [of_sres]); the two policy errors keep theirs.
    Not translated: validate_counterparty_htlc_sweep (an i64 expiry from the script parser and
    `if let Ok((..)) = ..` chains are outside the translator's fragment); it stays tied by the
    correspondence check only. *)
From Coq Require String.
From VLS Require Gen.CommitmentPolicyGen Gen.SweepGen Proofs.SweepGenProofs.

Theorem C09_sweep_rules_are_source :
  forall (prof : profile) (swarn : String.string -> bool) (w : wallet) (wid : N) (t : tx)
         (input amount path : N),
    SweepGen.gen_validate_sweep prof swarn 2 (SweepGenProofs.spend_fn w) (SweepGenProofs.allow_fn w) wid
      (SweepGenProofs.conc_tx t) input amount path =
    SweepGenProofs.of_sres (validate_sweep (SweepGenProofs.sfilter swarn) w t path).
Proof. exact SweepGenProofs.gen_sweep_is_model. Qed.
Print Assumptions C09_sweep_rules_are_source.

Theorem C09_delayed_sweep_rules_are_source :
  forall (prof : profile) (swarn : String.string -> bool) (w : wallet) (wid : N)
         (gs : CommitmentPolicyGen.ChannelSetup) (gcs : CommitmentPolicyGen.ChainState) (t : tx)
         (input amount path : N),
    SweepGen.gen_validate_delayed_sweep prof swarn 2 (SweepGenProofs.spend_fn w) (SweepGenProofs.allow_fn w)
      SweepGenProofs.height_fn TIME_MIN is_satisfied_by wid gs gcs (SweepGenProofs.conc_tx t) input amount path =
    SweepGenProofs.of_sres
      (validate_delayed_sweep SignedInput prof (SweepGenProofs.sfilter swarn) w
         (CommitmentPolicyGen.ChannelSetup_counterparty_selected_contest_delay gs)
         (CommitmentPolicyGen.ChainState_current_height gcs) t input path).
Proof. exact SweepGenProofs.gen_delayed_sweep_is_model. Qed.
Print Assumptions C09_delayed_sweep_rules_are_source.

Theorem C09_justice_sweep_rules_are_source :
  forall (prof : profile) (swarn : String.string -> bool) (w : wallet) (wid : N)
         (gs : CommitmentPolicyGen.ChannelSetup) (gcs : CommitmentPolicyGen.ChainState) (t : tx)
         (input amount path : N),
    SweepGen.gen_validate_justice_sweep prof swarn 2 (SweepGenProofs.spend_fn w) (SweepGenProofs.allow_fn w)
      SweepGenProofs.height_fn TIME_MIN is_satisfied_by wid gs gcs (SweepGenProofs.conc_tx t) input amount path =
    SweepGenProofs.of_sres
      (validate_justice_sweep SignedInput prof (SweepGenProofs.sfilter swarn) w
         (CommitmentPolicyGen.ChainState_current_height gcs) t input path).
Proof. exact SweepGenProofs.gen_justice_sweep_is_model. Qed.
Print Assumptions C09_justice_sweep_rules_are_source.
