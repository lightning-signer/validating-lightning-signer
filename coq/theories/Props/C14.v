(** C14 — channel monitors depend only on the current best chain.
    The model describes the code with the two repairs of on_remove_block_end /
    apply_backward_change ([repaired]); the behaviour before each repair is kept as a
    [_refuted] example. *)
From VLS Require Import Model.Monitor Proofs.MonitorProofs.

(** Connecting a block and then disconnecting it restores the previous view — the whole
    monitor state, the watched outpoints and the seen set (up to the sync flag saw_block,
    which is not part of a channel's view) — for every consistent chain, every block that
    extends it consistently, any grouping of transactions inside the block; and the
    disconnection does not abort. *)
Theorem C14_undo :
  forall (g : cfg) (h0 : N) (chain : list block) (b : block) (m m' : mon),
    consistent g (chain ++ [b]) = true ->
    run_adds g (init_mon g h0) chain = Ok m ->
    madd g m b = Ok m' ->
    mremove repaired g m' b = Ok (norm m).
Proof. exact undo. Qed.
Print Assumptions C14_undo.

(** After any admissible history of connections and disconnections (reorganisations of any
    depth down to the height at which the monitor was created) the monitor equals, up to the
    sync flag, the one obtained by connecting only the blocks of the surviving best chain. *)
Theorem C14_best_chain :
  forall (g : cfg) (h0 : N) (ops : list op),
    hist_ok g [] ops -> h0 + count_adds ops <= U32MAX ->
    exists m m',
      run repaired g (init_mon g h0) ops = Ok m
      /\ run_adds g (init_mon g h0) (best_chain ops) = Ok m'
      /\ norm m = norm m'.
Proof. exact best_chain_thm. Qed.
Print Assumptions C14_best_chain.

(** ... and that equality covers every view the property names. *)
Theorem C14_views :
  forall m m' : mon, norm m = norm m' ->
    funding_depth (m_state m) = funding_depth (m_state m')
    /\ double_spent_depth (m_state m) = double_spent_depth (m_state m')
    /\ closing_depth (m_state m) = closing_depth (m_state m')
    /\ (forall forgot, is_done (m_state m) forgot = is_done (m_state m') forgot)
    /\ clo (m_state m) = clo (m_state m')
    /\ closing_swept_h (m_state m) = closing_swept_h (m_state m')
    /\ our_swept_h (m_state m) = our_swept_h (m_state m')
    /\ m_watches m = m_watches m' /\ m_seen m = m_seen m'.
Proof. exact norm_views. Qed.
Print Assumptions C14_views.

(** The ChainState that as_chain_state hands to the validators (current height, funding,
    double-spend and closing depth) is part of that view, and it is the same closing depth
    as the monitor's own getter reports whenever at most one kind of close is recorded. *)
Theorem C14_chain_state :
  forall m m' : mon, norm m = norm m' -> chain_state (m_state m) = chain_state (m_state m').
Proof. exact norm_chain_state. Qed.
Print Assumptions C14_chain_state.
Theorem C14_chain_state_getters :
  forall s : state, (mutual_h s = None \/ unilateral_h s = None) ->
    chain_state s = (height s, funding_depth s, double_spent_depth s, closing_depth s).
Proof. exact chain_state_getters. Qed.
Print Assumptions C14_chain_state_getters.

(** Restarts anywhere in a history change nothing: the monitor is restored from exactly what
    it persisted (state, watches, seen), so the best-chain theorem holds with restarts. *)
Theorem C14_best_chain_restarts :
  forall (g : cfg) (h0 : N) (rops : list rop),
    hist_ok g [] (deliveries rops) -> h0 + count_adds (deliveries rops) <= U32MAX ->
    exists m m',
      run_r repaired g (init_mon g h0) rops = Ok m
      /\ run_adds g (init_mon g h0) (best_chain (deliveries rops)) = Ok m'
      /\ norm m = norm m'.
Proof. intros g h0 rops. rewrite restarts_transparent. apply best_chain_thm. Qed.
Print Assumptions C14_best_chain_restarts.

(** "Within the window": the tracker remembers up to MAX_REORG_SIZE = 100 previous headers;
    after any sequence of connections, disconnections and restarts, the next disconnection
    is accepted exactly when it neither goes below the height at which the tracker was
    created nor more than MAX_REORG_SIZE blocks below the highest block ever connected - in
    particular a reorganisation of exactly MAX_REORG_SIZE blocks is inside the window. *)
Theorem C14_window :
  forall ops : list wop,
    let s := wrun winit ops in
    snd (wnext s WRemove) = true <-> (0 < w_len s /\ w_peak s - w_len s < MAX_REORG_SIZE).
Proof. exact window_accepts. Qed.
Print Assumptions C14_window.
Example C14_window_edge :
  let connect n := repeat WAdd n in let disconnect n := repeat WRemove n in
  (* 103 connected, 99 back, 99 forward, exactly 100 back: all accepted; one more: refused *)
  win_trace winit (connect 103%nat ++ disconnect 99%nat ++ connect 99%nat ++ disconnect 100%nat ++ [WRemove])
  = map Some (map N.of_nat (seq 1 100)) ++ [Some 100; Some 100; Some 100]
    ++ map Some (map N.of_nat (rev (seq 1 99))) ++ map Some (map N.of_nat (seq 2 99))
    ++ map Some (map N.of_nat (rev (seq 0 100))) ++ [None].
Proof. vm_compute. reflexivity. Qed.

(** Processing an admissible history never aborts: neither a connection nor a disconnection. *)
Theorem C14_no_abort :
  forall (g : cfg) (h0 : N) (ops : list op),
    hist_ok g [] ops -> h0 + count_adds ops <= U32MAX ->
    run repaired g (init_mon g h0) ops <> Abort.
Proof. exact no_abort_thm. Qed.
Print Assumptions C14_no_abort.

(** Non-vacuity: funding; then {commitment with one HTLC, sweep of our output} in one block;
    then {HTLC spend, second-level spend} in one block; a reorganisation of depth 2 that
    re-connects the four transactions, regrouped in three blocks.  The history is admissible, runs, and ends
    in the monitor of its best chain with the closing output swept. *)
Definition ex_cfg : cfg := mkcfg 10 1 [(1, 0); (2, 0)].
Definition ex_F : tx := mktx 10 [(1, 0); (2, 0)] 2 NotCommitment.
Definition ex_C : tx := mktx 21 [(10, 1)] 3 (Commitment (Some 2) [0]).
Definition ex_S : tx := mktx 30 [(21, 2)] 1 NotCommitment.
Definition ex_H : tx := mktx 40 [(3, 5); (21, 0)] 2 NotCommitment.
Definition ex_X : tx := mktx 50 [(40, 1)] 1 NotCommitment.
Definition ex_ops : list op :=
  [Add [ex_F]; Add [ex_C; ex_S]; Add [ex_H; ex_X]; Remove [ex_H; ex_X]; Remove [ex_C; ex_S];
   Add [ex_C]; Add [ex_S; ex_H]; Add [ex_X]].
Lemma ex_ops_ok : hist_ok ex_cfg [] ex_ops.
Proof. cbn [hist_ok ex_ops]. repeat split; vm_compute; reflexivity. Qed.
Example C14_nonvacuous :
  hist_ok ex_cfg [] ex_ops
  /\ best_chain ex_ops = [[ex_F]; [ex_C]; [ex_S; ex_H]; [ex_X]]
  /\ exists m, run repaired ex_cfg (init_mon ex_cfg 5) ex_ops = Ok m
       /\ run_adds ex_cfg (init_mon ex_cfg 5) (best_chain ex_ops) = Ok m
       /\ height (m_state m) = 9 /\ closing_swept_h (m_state m) = Some 9 /\ our_swept_h (m_state m) = Some 8
       /\ m_watches m = [] /\ m_seen m = [(1, 0); (2, 0); (10, 1); (21, 0); (21, 2); (40, 1)].
Proof.
  split; [exact ex_ops_ok|]. split; [reflexivity|].
  eexists. split; [vm_compute; reflexivity|]. vm_compute. repeat split.
Qed.

(** The statements are false of the code before the first repair (backward changes applied
    first-to-last): disconnecting the block {commitment, sweep of our output} aborts
    ([unwrap] on [None] in apply_backward_change: the close is undone before the sweep). *)
Example C14_old_order_refuted :
  exists (g : cfg) (chain : list block) (b : block) (m m' : mon),
    consistent g (chain ++ [b]) = true /\ chain_wf g (chain ++ [b]) = true
    /\ run_adds g (init_mon g 0) chain = Ok m /\ madd g m b = Ok m'
    /\ mremove (mkfx false true) g m' b = Abort.
Proof.
  exists ex_cfg, [[ex_F]], [ex_C; ex_S]. eexists. eexists.
  split; [vm_compute; reflexivity|]. split; [vm_compute; reflexivity|].
  split; [vm_compute; reflexivity|]. split; [vm_compute; reflexivity|]. vm_compute. reflexivity.
Qed.

(** ... and of the code before the second repair (HTLCOutputSpent / SecondLevelHTLCOutputSpent
    reported exchanged add / remove lists on the way back): after disconnecting the block with
    the HTLC spend the HTLC output (21,0) is no longer watched and the second-level outpoint
    (40,1) still is. *)
Example C14_old_watch_deltas_refuted :
  exists (g : cfg) (chain : list block) (b : block) (m m' m'' : mon),
    consistent g (chain ++ [b]) = true /\ chain_wf g (chain ++ [b]) = true
    /\ run_adds g (init_mon g 0) chain = Ok m /\ madd g m b = Ok m'
    /\ mremove (mkfx true false) g m' b = Ok m''
    /\ m_watches m = [(21, 0); (21, 2)] /\ m_watches m'' = [(21, 2); (40, 1)]
    /\ m_state m'' = set_saw (m_state m) true.
Proof.
  exists ex_cfg, [[ex_F]; [ex_C]], [ex_H]. eexists. eexists. eexists.
  split; [vm_compute; reflexivity|]. split; [vm_compute; reflexivity|].
  split; [vm_compute; reflexivity|]. split; [vm_compute; reflexivity|].
  split; [vm_compute; reflexivity|]. vm_compute. repeat split.
Qed.

Check C14_undo.
Check C14_best_chain.
Check C14_no_abort.
