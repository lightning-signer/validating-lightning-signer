(** C17 — externally stored state is authenticated against tampering, swapping and replay.

    "A value fetched from external storage is accepted only if its content, key and version
    are exactly those the signer wrote, and a response to a read is accepted only if it
    authenticates under the fresh nonce of that request.  Two different sets of
    key-version-value records never authenticate under the same tag."

    The MACed strings are undelimited concatenations (Model/Hmac.v), so the statement at
    full strength is FALSE of the code: [C17_refuted_*] exhibit two different inputs with the
    same MACed bytes, hence the same tag for every MAC.  What holds is proved for everything
    outside the class [Known] (the two inputs are framed differently; three sub-classes,
    the ones listed in KNOWN_FINDINGS.json), under the idealisation that the MAC is injective
    on its message ([mac] and that law are premises of each theorem, not axioms). *)
From VLS Require Import Base.Eqb Model.Hmac Model.HmacCheck Proofs.HmacProofs.

Definition InjectiveMac (mac : bytes -> bytes -> bytes) : Prop :=
  forall k m m', mac k m = mac k m' -> m = m'.

(** ** Stored values (lightning-storage-server client envelope) *)

(** Acceptance means exactly: the last 32 bytes are the tag of (key, version, the rest). *)
Theorem C17_accepted_value_is_tagged :
  forall mac s k v st y,
    process_value_from_get mac s k v st = Some y ->
    exists t, st = y ++ t /\ length t = 32%nat /\ t = value_tag mac s k v y.
Proof.
  intros mac s k v st y.
  unfold process_value_from_get. destruct (split_tag st) as [[y0 t]|] eqn:E; [|discriminate].
  destruct (beq t (value_tag mac s k v y0)) eqn:B; [|discriminate].
  intros H. inversion H; subst. apply split_tag_spec in E. destruct E as [E L].
  exists t. apply bytes_beq_eq in B. repeat split; assumption.
Qed.
Print Assumptions C17_accepted_value_is_tagged.

(** Tag binding outside the known class: for keys of one length the tag determines key,
    version and content. *)
Theorem C17_value_binding_outside_known :
  forall mac, InjectiveMac mac ->
  forall s k v x k' v' x',
    v < two64 -> v' < two64 -> length k = length k' ->
    value_tag mac s k v x = value_tag mac s k' v' x' -> k = k' /\ v = v' /\ x = x'.
Proof.
  intros mac Hi s k v x k' v' x' Hv Hv' Lk H. apply Hi in H.
  destruct (ser_value_inj_len k v x k' v' x' [] []) as (A & B & C & _); auto.
  rewrite !app_nil_r. exact H.
Qed.
Print Assumptions C17_value_binding_outside_known.

(** Whatever bytes the store returns: if they are accepted under (k', v') and carry a tag
    that the signer produced for (k, v, x), with |k| = |k'|, then key, version, content and
    the stored bytes are exactly those the signer wrote (covers every bit flip, truncation,
    extension, and every swap of keys of equal length or of versions). *)
Theorem C17_fetched_value_is_what_was_written :
  forall mac, InjectiveMac mac ->
  forall s k v x k' v' st y t y',
    v < two64 -> v' < two64 ->
    st = y ++ t -> length t = 32%nat -> t = value_tag mac s k v x ->
    process_value_from_get mac s k' v' st = Some y' ->
    length k = length k' ->
    k' = k /\ v' = v /\ y' = x /\ st = prepare_value_for_put mac s k v x.
Proof.
  intros mac Hi s k v x k' v' st y t y' Hv Hv' -> Lt -> Hacc Lk.
  apply get_app_inv in Hacc; [|exact Lt]. destruct Hacc as [-> E].
  apply (C17_value_binding_outside_known mac Hi) in E; trivial. destruct E as (-> & -> & ->). auto.
Qed.
Print Assumptions C17_fetched_value_is_what_was_written.

(** The bytes exactly as written are accepted only under the key and version they were
    written for — unconditionally in the key lengths (key swap, version swap / rollback of
    unmodified stored bytes). *)
Theorem C17_unmodified_value_bound_to_key_and_version :
  forall mac, InjectiveMac mac ->
  forall s k v x k' v' y,
    v < two64 -> v' < two64 -> length (value_tag mac s k v x) = 32%nat ->
    process_value_from_get mac s k' v' (prepare_value_for_put mac s k v x) = Some y ->
    k' = k /\ v' = v /\ y = x.
Proof.
  intros mac Hi s k v x k' v' y Hv Hv' L H. apply get_app_inv in H; [|exact L]. destruct H as [-> E].
  apply Hi, ser_value_inj_val in E; trivial. destruct E as [-> ->]. auto.
Qed.
Print Assumptions C17_unmodified_value_bound_to_key_and_version.

(** Every single-bit flip of the content is rejected. *)
Theorem C17_value_bitflip_rejected :
  forall mac, InjectiveMac mac ->
  forall s k v x i bit,
    (i < length x)%nat -> length (value_tag mac s k v x) = 32%nat ->
    process_value_from_get mac s k v (flip_at i bit x ++ value_tag mac s k v x) = None.
Proof.
  intros mac Hi s k v x i bit Li L. destruct (process_value_from_get _ _ _ _ _) eqn:H; [|reflexivity].
  apply get_app_inv in H; [|exact L]. destruct H as [_ E]. apply Hi in E. unfold ser_value in E. do 2 apply app_inv_head in E.
  destruct (flip_at_neq i bit x Li). symmetry. exact E.
Qed.
Print Assumptions C17_value_bitflip_rejected.

Theorem C17_short_value_rejected :
  forall mac s k v st, (length st < 32)%nat -> process_value_from_get mac s k v st = None.
Proof.
  intros mac s k v st L. unfold process_value_from_get, split_tag.
  destruct (Nat.ltb_spec (length st) 32); [reflexivity | lia].
Qed.

(** What the signer wrote is accepted (the check is not vacuous). *)
Theorem C17_value_roundtrip :
  forall mac s k v x,
    length (value_tag mac s k v x) = 32%nat ->
    process_value_from_get mac s k v (prepare_value_for_put mac s k v x) = Some x.
Proof.
  intros mac s k v x L. unfold prepare_value_for_put. rewrite get_app, bytes_beq_refl by exact L. reflexivity.
Qed.

(** ** Records coming back from the store (PrivClient::get, conflicts of PrivClient::put)

    The version on the wire is an i64.  Whatever the sign of the version and whatever the length
    of the value, a record is handed back only after process_value_from_get accepted it: with its
    own 32-byte tag under the record secret, which the store never has. *)
Theorem C17_returned_records_are_tagged :
  forall mac hs kvs out,
    remove_and_check_hmacs mac hs kvs = Some out ->
    Forall2 (fun (i o : wrecord) =>
               let '(k, v, st) := i in let '(k', v', y) := o in
               k' = k /\ v' = v /\
               exists t, st = y ++ t /\ length t = 32%nat /\ t = value_tag mac hs k (wire_version v) y)
            kvs out.
Proof.
  intros mac hs kvs. induction kvs as [|[[k v] st] r IH]; intros out H; cbn [remove_and_check_hmacs] in H.
  - inversion H. constructor.
  - destruct (process_value_from_get mac hs k (wire_version v) st) as [y|] eqn:E; [|discriminate H].
    destruct (remove_and_check_hmacs mac hs r) as [o|]; [|discriminate H].
    inversion H; subst out. constructor; [|apply IH; reflexivity].
    repeat split. apply C17_accepted_value_is_tagged. exact E.
Qed.
Print Assumptions C17_returned_records_are_tagged.

Theorem C17_short_record_never_returned :
  forall mac hs k v st r,
    (length st < 32)%nat -> remove_and_check_hmacs mac hs ((k, v, st) :: r) = None.
Proof.
  intros mac hs k v st r L. cbn [remove_and_check_hmacs]. rewrite C17_short_value_rejected by exact L. reflexivity.
Qed.

(** Binding over signed versions: a record handed back under (k, v) whose tag the signer made for
    (k0, v0, x0), keys of one length, both versions any i64: it is exactly what the signer wrote.
    In particular a record presented at a negative (never written) version is refused. *)
Theorem C17_signed_version_binding :
  forall mac, InjectiveMac mac ->
  forall hs k v st y t k0 v0 x0,
    is_i64 v -> is_i64 v0 ->
    process_value_from_get mac hs k (wire_version v) st = Some y ->
    st = y ++ t -> length t = 32%nat -> t = value_tag mac hs k0 (wire_version v0) x0 ->
    length k0 = length k -> k = k0 /\ v = v0 /\ y = x0.
Proof.
  intros mac Hi hs k v st y t k0 v0 x0 B B0 H Hst Lt Ht Lk.
  destruct (C17_fetched_value_is_what_was_written mac Hi hs k0 (wire_version v0) x0 k (wire_version v) st y t y) as (A & Bv & C & _);
    trivial; try apply wire_version_lt.
  repeat split; trivial. apply wire_version_inj; assumption.
Qed.
Print Assumptions C17_signed_version_binding.

(** non-vacuity: under an injective MAC, bytes of the store's choice at version -1 / i64::MIN are
    refused, a value the signer wrote at version 3 is refused at version -1, and opens at 3 *)
Example C17_negative_version_nonvacuous :
  let x := repeat 9 23 in
  let stored := prepare_value_for_put toy_mac [4] [107] 3 x in
  remove_and_check_hmacs toy_mac [4] [([107], (-1)%Z, repeat 66 40)] = None /\
  remove_and_check_hmacs toy_mac [4] [([107], (-9223372036854775808)%Z, repeat 66 32)] = None /\
  remove_and_check_hmacs toy_mac [4] [([107], (-1)%Z, [])] = None /\
  remove_and_check_hmacs toy_mac [4] [([107], (-1)%Z, stored)] = None /\
  remove_and_check_hmacs toy_mac [4] [([107], 3%Z, stored)] = Some [([107], 3%Z, x)] /\
  wire_version (-1) = 18446744073709551615.
Proof. vm_compute. repeat split. Qed.

(** ** Record sets under the shared tag (client / server / read-response HMAC) *)

(** Two different (nonce, record list) inputs that are not framed differently never share a
    tag. *)
Theorem C17_binding_outside_known :
  forall mac, InjectiveMac mac ->
  forall s (a b : input),
    wf_input a -> wf_input b -> ~ Known a b ->
    input_tag mac s a = input_tag mac s b -> a = b.
Proof.
  intros mac Hi s a b W W' NK H. apply Hi in H. apply (ser_input_inj s); trivial.
  destruct (in_diff a b) eqn:E; [|reflexivity]. destruct NK. unfold Known. rewrite E. discriminate.
Qed.
Print Assumptions C17_binding_outside_known.

(** [Known] is exactly three classes, named by the first field boundary that differs, and
    every collision of the MACed bytes lies in it. *)
Theorem C17_known_classes :
  forall a b,
    Known a b <->
    in_diff a b = Some NonceKey \/ in_diff a b = Some KeyVersion \/ in_diff a b = Some MergeSplit.
Proof.
  intros a b. unfold Known. destruct (in_diff a b) as [[| |]|]; split; auto; try discriminate.
  - intros H. destruct H. reflexivity.
  - intros [H|[H|H]]; discriminate.
Qed.

Theorem C17_nonce_key_class :
  forall a b, in_diff a b = Some NonceKey <-> length (fst a) <> length (fst b).
Proof.
  intros a b. unfold in_diff.
  destruct (Nat.eqb_spec (length (fst a)) (length (fst b))) as [E|NE]; cbn [negb]; [|tauto].
  split; [intros H; destruct (rec_diff_not_nonce _ _ H)|tauto].
Qed.

Theorem C17_collisions_are_known :
  forall s a b,
    wf_input a -> wf_input b -> a <> b -> ser_input s a = ser_input s b -> Known a b.
Proof. intros s a b W W' N H E. apply N. eapply ser_input_inj; eassumption. Qed.
Print Assumptions C17_collisions_are_known.

(** Any modification that keeps the extents of the fields — bit flips of keys, versions,
    values or the nonce, swapping keys / versions / values between records, reordering
    records of equal shapes — is detected. *)
Theorem C17_same_shape_modification_detected :
  forall mac, InjectiveMac mac ->
  forall s n rs n' rs',
    wf_records rs -> wf_records rs' ->
    length n = length n' -> map shape rs = map shape rs' ->
    shared_tag mac s n rs = shared_tag mac s n' rs' -> n = n' /\ rs = rs'.
Proof.
  intros mac Hi s n rs n' rs' W W' Ln Hs H.
  assert (E : (n, rs) = (n', rs')); [|inversion E; auto].
  apply (C17_binding_outside_known mac Hi s); trivial.
  unfold Known. rewrite in_diff_same_shape by assumption. auto.
Qed.
Print Assumptions C17_same_shape_modification_detected.

(** Truncation or extension (any change of the total length) is detected. *)
Theorem C17_truncation_detected :
  forall mac, InjectiveMac mac ->
  forall s a b,
    length (ser_input s a) <> length (ser_input s b) -> input_tag mac s a <> input_tag mac s b.
Proof. intros mac Hi s a b L H. apply L. apply Hi in H. unfold ser_input. rewrite H. reflexivity. Qed.

(** A tag made for nonce n never verifies for another nonce of the same length, whatever
    the records. *)
Theorem C17_fresh_nonce :
  forall mac, InjectiveMac mac ->
  forall s n rs n' rs',
    length n = length n' -> shared_tag mac s n rs = shared_tag mac s n' rs' -> n = n'.
Proof. intros mac Hi s n rs n' rs' L H. apply (shared_tag_inj mac Hi s n rs n' rs' L H). Qed.
Print Assumptions C17_fresh_nonce.

(** check_hmac after new_nonce(n) accepts no tag that was made for another nonce of the
    same length (replay of an earlier read response). *)
Theorem C17_replayed_response_rejected :
  forall mac, InjectiveMac mac ->
  forall h n rs n0 rs0,
    helper_check mac (new_nonce h n) rs (shared_tag mac (shared_secret h) n0 rs0) = true ->
    length n0 = length n -> n0 = n.
Proof.
  intros mac Hi h n rs n0 rs0 H L. apply check_hmac_iff in H. exact (C17_fresh_nonce mac Hi _ _ _ _ _ L H).
Qed.

(** A reply the server made under another nonce of the same length (a man in the middle
    swapped the nonce of the request) is refused, whatever records accompany it. *)
Theorem C17_reply_for_other_nonce_refused :
  forall mac, InjectiveMac mac ->
  forall s n m rs rs',
    length m = length n -> m <> n -> check_hmac mac s n rs' (shared_tag mac s m rs) = false.
Proof.
  intros mac Hi s n m rs rs' L N. destruct (check_hmac mac s n rs' (shared_tag mac s m rs)) eqn:E; [|reflexivity].
  apply check_hmac_iff in E. destruct N. exact (C17_fresh_nonce mac Hi _ _ _ _ _ L E).
Qed.
Print Assumptions C17_reply_for_other_nonce_refused.

(** Freshness over a history.  [reads] lists, in order, the nonce each read of one client
    sent and the records it was answered with.  PREMISE: [nonces_fresh] — every nonce is 32
    bytes and was not used before in this history.  This is a fact about the client code
    (PrivClient::get, ExternalPersistHelper::new_nonce and their callers); the driver evaluates
    this very function on the nonces the harness sees on the wire in every run.  Then the
    reply to read i is refused as the answer to any other read j (in particular any later
    one: rollback by replay), whatever records the man in the middle presents with it. *)
Theorem C17_replayed_reply_refused_in_fresh_history :
  forall mac, InjectiveMac mac ->
  forall s (reads : list (bytes * list record)) i j ni rsi nj rsj rs',
    nonces_fresh (map fst reads) = true ->
    nth_error reads i = Some (ni, rsi) -> nth_error reads j = Some (nj, rsj) -> i <> j ->
    check_hmac mac s nj rs' (shared_tag mac s ni rsi) = false.
Proof.
  intros mac Hi s reads i j ni rsi nj rsj rs' F Hi' Hj Nij.
  destruct (nonces_fresh_distinct (map fst reads) i j ni nj F) as (Li & Lj & N); trivial.
  - rewrite nth_error_map, Hi'. reflexivity.
  - rewrite nth_error_map, Hj. reflexivity.
  - apply C17_reply_for_other_nonce_refused; [exact Hi|congruence|exact N].
Qed.
Print Assumptions C17_replayed_reply_refused_in_fresh_history.

(** The premise is necessary: when a nonce repeats (e.g. every read sends the empty nonce),
    the reply recorded at the earlier read, with its stale records, is accepted at the later
    one — for every MAC — and [nonces_fresh] says so. *)
Example C17_stale_reply_accepted_without_fresh_nonce :
  (forall mac s n rs_old, check_hmac mac s n rs_old (shared_tag mac s n rs_old) = true) /\
  nonces_fresh [[]; []] = false /\
  nonces_fresh [repeat 7 32; repeat 7 32] = false /\
  nonces_fresh [repeat 7 32; repeat 8 31] = false /\
  nonces_fresh [repeat 7 32; repeat 8 32; 9 :: repeat 7 31] = true.
Proof.
  split; [intros; apply check_hmac_iff; reflexivity|].
  repeat split; vm_compute; reflexivity.
Qed.

(** ** The start-up read: vls-util init_state (and the same rule in PrivClient::get) *)

(** Acceptance is exactly: the delivered tag is the tag of exactly the delivered list under the
    nonce of this read — for every list, the empty one included. *)
Theorem C17_init_state_accepts_only_tagged :
  forall mac s n rs t l,
    init_state mac s n rs t = Some l -> l = rs /\ t = shared_tag mac s n rs.
Proof.
  intros mac s n rs t l. unfold init_state. destruct (check_hmac mac s n rs t) eqn:E; [|discriminate].
  intros H. injection H as <-. split; [reflexivity|apply check_hmac_iff, E].
Qed.

Theorem C17_init_state_accepts_authentic :
  forall mac s n rs, init_state mac s n rs (shared_tag mac s n rs) = Some rs.
Proof.
  intros mac s n rs. unfold init_state. rewrite (proj2 (check_hmac_iff mac s n rs _) eq_refl). reflexivity.
Qed.

(** An accepted reply is the list the server authenticated (outside the known framing
    classes), and it was authenticated for this read's nonce. *)
Theorem C17_init_state_accepted_reply_is_authenticated :
  forall mac, InjectiveMac mac ->
  forall s n rs t l n0 rs0,
    wf_records rs -> wf_records rs0 ->
    t = shared_tag mac s n0 rs0 -> length n0 = length n ->
    init_state mac s n rs t = Some l ->
    n0 = n /\ (~ Known (n, rs) (n, rs0) -> l = rs0).
Proof.
  intros mac Hi s n rs t l n0 rs0 W W0 -> Ln H. apply C17_init_state_accepts_only_tagged in H. destruct H as [-> H].
  pose proof (C17_fresh_nonce mac Hi _ _ _ _ _ Ln H). subst n0. split; [reflexivity|]. intros NK.
  assert (X : (n, rs) = (n, rs0)); [|inversion X; reflexivity].
  apply (C17_binding_outside_known mac Hi s); trivial. symmetry. exact H.
Qed.
Print Assumptions C17_init_state_accepted_reply_is_authenticated.

(** A reply without records is accepted only if the server authenticated "no records" for this
    nonce: truncation of the stored state to nothing is refused.  Unconditional — no framing
    class applies to the empty list. *)
Theorem C17_init_state_empty_reply_is_authenticated :
  forall mac, InjectiveMac mac ->
  forall s n t l n0 rs0,
    t = shared_tag mac s n0 rs0 -> length n0 = length n ->
    init_state mac s n [] t = Some l -> n0 = n /\ rs0 = [] /\ l = [].
Proof.
  intros mac Hi s n t l n0 rs0 -> Ln H. apply C17_init_state_accepts_only_tagged in H. destruct H as [-> H].
  apply (shared_tag_inj mac Hi) in H; [|exact Ln]. destruct H as [-> H]. apply ser_records_nil in H. auto.
Qed.
Print Assumptions C17_init_state_empty_reply_is_authenticated.

(** non-vacuity: the authentic empty reply is accepted, the same empty reply carrying the tag of
    a one-record state, no tag, or the empty-state tag of another nonce is refused *)
Example C17_init_state_nonvacuous :
  let n := repeat 7 32 in let n' := repeat 8 32 in let rs0 := [([107], 3, [9; 9])] in
  init_state toy_mac [5] n [] (shared_tag toy_mac [5] n []) = Some [] /\
  init_state toy_mac [5] n [] (shared_tag toy_mac [5] n rs0) = None /\
  init_state toy_mac [5] n [] [] = None /\
  init_state toy_mac [5] n [] (shared_tag toy_mac [5] n' []) = None /\
  init_state toy_mac [5] n rs0 (shared_tag toy_mac [5] n rs0) = Some rs0.
Proof. vm_compute. repeat split. Qed.

(** The client tag of a put is never the server tag of a put. *)
Theorem C17_client_server_separated :
  forall mac, InjectiveMac mac ->
  forall s rs rs', client_hmac mac s rs <> server_hmac mac s rs'.
Proof.
  intros mac Hi s rs rs' H. apply (C17_fresh_nonce mac Hi) in H; [discriminate H|reflexivity].
Qed.

(** key/version boundary — stored value: the store answers a read of key "a" at version
    0x62·2^56 with 0x00 ‖ v ‖ tag, where tag was made for ("ab", 0, v); accepted. *)
Example C17_refuted_value_key_version_shift :
  wit_kv_a <> wit_kv_b /\ wf_record wit_kv_a /\ wf_record wit_kv_b /\
  in_diff ([], [wit_kv_a]) ([], [wit_kv_b]) = Some KeyVersion /\
  forall mac s,
    value_tag mac s (rkey wit_kv_a) (rver wit_kv_a) (rval wit_kv_a) =
    value_tag mac s (rkey wit_kv_b) (rver wit_kv_b) (rval wit_kv_b) /\
    (length (value_tag mac s (rkey wit_kv_a) (rver wit_kv_a) (rval wit_kv_a)) = 32%nat ->
     process_value_from_get mac s (rkey wit_kv_b) (rver wit_kv_b)
       (rval wit_kv_b ++ value_tag mac s (rkey wit_kv_a) (rver wit_kv_a) (rval wit_kv_a))
     = Some (rval wit_kv_b)).
Proof.
  split; [intros H; discriminate H|].
  split; [vm_compute; reflexivity|]. split; [vm_compute; reflexivity|].
  split; [vm_compute; reflexivity|].
  intros mac s.
  assert (E : ser_value (rkey wit_kv_a) (rver wit_kv_a) (rval wit_kv_a) =
              ser_value (rkey wit_kv_b) (rver wit_kv_b) (rval wit_kv_b))
    by (vm_compute; reflexivity).
  split; [unfold value_tag; rewrite E; reflexivity|].
  intros L. rewrite get_app by exact L. unfold value_tag. rewrite E, bytes_beq_refl. reflexivity.
Qed.

(** key/version boundary — record sets *)
Example C17_refuted_set_key_version_shift :
  exists rs rs', rs <> rs' /\ wf_records rs /\ wf_records rs' /\
    in_diff ([], rs) ([], rs') = Some KeyVersion /\
    forall mac s n, shared_tag mac s n rs = shared_tag mac s n rs'.
Proof.
  exists [wit_kv_a], [wit_kv_b].
  split; [intros H; discriminate H|].
  split; [repeat constructor; vm_compute; reflexivity|].
  split; [repeat constructor; vm_compute; reflexivity|].
  split; [vm_compute; reflexivity|].
  intros mac s n. unfold shared_tag, ser_shared.
  replace (ser_records [wit_kv_a]) with (ser_records [wit_kv_b]) by (vm_compute; reflexivity).
  reflexivity.
Qed.

(** record merge/split *)
Example C17_refuted_set_merge_split :
  wit_ms_a <> wit_ms_b /\ wf_records wit_ms_a /\ wf_records wit_ms_b /\
  in_diff ([], wit_ms_a) ([], wit_ms_b) = Some MergeSplit /\
  forall mac s n, shared_tag mac s n wit_ms_a = shared_tag mac s n wit_ms_b.
Proof.
  split; [intros H; discriminate H|].
  split; [repeat constructor; vm_compute; reflexivity|].
  split; [repeat constructor; vm_compute; reflexivity|].
  split; [vm_compute; reflexivity|].
  intros mac s n. unfold shared_tag, ser_shared.
  replace (ser_records wit_ms_a) with (ser_records wit_ms_b) by (vm_compute; reflexivity).
  reflexivity.
Qed.

(** nonce/key boundary *)
Example C17_refuted_nonce_key_shift :
  wit_nk_a <> wit_nk_b /\ wf_input wit_nk_a /\ wf_input wit_nk_b /\
  in_diff wit_nk_a wit_nk_b = Some NonceKey /\
  forall mac s, input_tag mac s wit_nk_a = input_tag mac s wit_nk_b.
Proof.
  split; [intros H; discriminate H|].
  split; [repeat constructor; vm_compute; reflexivity|].
  split; [repeat constructor; vm_compute; reflexivity|].
  split; [vm_compute; reflexivity|].
  intros mac s. apply equal_ser_equal_tag. unfold ser_input, ser_shared.
  apply f_equal. vm_compute. reflexivity.
Qed.

(** nonce/key boundary across the two uses of the tag: the client tag of a put is accepted
    by check_hmac as the answer to a read, for other records, when the read nonce is
    0x01 ‖ (first 31 bytes of the put's first key). *)
Example C17_refuted_put_tag_answers_read :
  wit_put_rs <> wit_get_rs /\ length wit_get_nonce = 32%nat /\
  in_diff ([1], wit_put_rs) (wit_get_nonce, wit_get_rs) = Some NonceKey /\
  forall mac s,
    helper_check mac (new_nonce (helper_new s) wit_get_nonce) wit_get_rs
      (client_hmac mac s wit_put_rs) = true.
Proof.
  split; [intros H; discriminate H|].
  split; [reflexivity|]. split; [vm_compute; reflexivity|].
  intros mac s. unfold helper_check, check_hmac, client_hmac, shared_tag, new_nonce, helper_new.
  cbn [shared_secret last_nonce]. apply bytes_beq_eq.
  apply (equal_ser_equal_tag mac s ([1], wit_put_rs) (wit_get_nonce, wit_get_rs)).
  unfold ser_input, ser_shared. cbn [fst snd]. apply f_equal. vm_compute. reflexivity.
Qed.

(** the third sentence of the property, literally, is false *)
Example C17_set_binding_refuted :
  ~ (forall mac, InjectiveMac mac -> forall s n rs rs',
       wf_records rs -> wf_records rs' ->
       shared_tag mac s n rs = shared_tag mac s n rs' -> rs = rs').
Proof.
  intros H.
  destruct C17_refuted_set_merge_split as (N & W & W' & _ & E).
  apply N. apply (H toy_mac toy_mac_inj [] []); trivial.
Qed.

(** ** Non-vacuity: an injective MAC exists, and under it a same-shape modification (a
    version rollback in the second record) of a concrete list changes the tag while the
    hypotheses of [C17_same_shape_modification_detected] hold. *)
Example C17_nonvacuous :
  InjectiveMac toy_mac /\
  let rs  := [([97; 47; 120], 7, [1; 2; 3]); ([98], 4294967296, [])] in
  let rs' := [([97; 47; 120], 7, [1; 2; 3]); ([98], 4294967295, [])] in
  wf_records rs /\ wf_records rs' /\ map shape rs = map shape rs' /\
  ~ Known ([1], rs) ([2], rs') /\
  shared_tag toy_mac [9] [1] rs <> shared_tag toy_mac [9] [1] rs' /\
  process_value_from_get toy_mac [9] [97] 5 (prepare_value_for_put toy_mac [9] [97] 5 (repeat 3 23))
    = Some (repeat 3 23).
Proof.
  split; [exact toy_mac_inj|].
  cbv zeta.
  split; [repeat constructor; vm_compute; reflexivity|].
  split; [repeat constructor; vm_compute; reflexivity|].
  split; [reflexivity|].
  split; [intros K; apply K; vm_compute; reflexivity|].
  split; [vm_compute; intros H; discriminate H|].
  vm_compute. reflexivity.
Qed.

Check C17_binding_outside_known.
