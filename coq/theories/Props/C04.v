(** C04 — commitment signatures bind to the BOLT-3 transaction of the validated content.

    Everything is quantified over ALL channel setups, per-commitment keys and commitment
    contents of Model/Commitment.v (HTLC lists of any length, with duplicates), over every
    transaction and witness-script list a caller can supply, and over every instance of the
    external primitives: the two hash functions [sha], [rip], public-key parsing [pk_parse],
    the signer [sign] and the verdict [accept] of everything the validator and the node state
    check about a semantic content (both entry points ask it about the same normalised content).

    Premises that are not definitional are named where they occur:
    - [sha_len], [rip_len]: output lengths (proved for the executable [Sha256.sha256] and
      [ripemd160] in [C04_hash_lengths], so that [C04_entry_points_agree_sha256] has none);
    - [wf pk_parse s k]: the commitment type is not the deprecated non-zero-fee [Anchors]
      (LDK 0.1 builds a non-anchor transaction for it: [C04_anchors_type_refuted]); to_self_delay
      is at most 2016 (the decoder's MAX_DELAY; the default policy's max_delay); the seven keys
      are 33-byte strings that [PublicKey::from_slice] accepts, the funding keys in canonical form;
    - [accept_bounded]: a content the validator accepts has received-HTLC expiries below 2^31
      ([validate_expiry] refuses 500 000 000 and above);
    - for [C04_no_foreign_tx] only: signatures verify for exactly the digest they were made for,
      and the BIP143 digest is injective on transactions. *)
From Coq Require Import String List NArith ZArith Bool.
From VLS Require Import Base.Codec Base.Ripemd160 Model.Commitment
  Proofs.CommitmentScript Proofs.CommitmentSort Proofs.CommitmentProofs Proofs.CommitmentHash.
From VLS Require Base.Sha256 Base.Sha256Eval.
Import ListNotations.
Open Scope N_scope.

(** The raw-transaction entry point signs a transaction only if it is — structurally, hence
    byte for byte — the canonical BOLT-3 transaction of a content that passed validation (the
    caller's commitment number, fee rate and HTLCs, and the two balances the decoder read from
    the transaction itself), and the signature it returns is the funding-key signature of the
    BIP143 digest of that canonical transaction. *)
Theorem C04_phase1_canonical :
  forall (sha rip : bytes -> bytes) (pk_parse : bytes -> option bytes) (s : setup) (k : ckeys)
         (SK SIG : Type) (sign : SK -> bytes -> SIG) (funding_key : SK) (value_ok : bool)
         (accept : content -> bool)
         (t : tx) (ws : list bytes) (num feerate : N) (offered received : list htlc) (sig : SIG),
    sign_phase1 sha rip pk_parse s k SK SIG sign funding_key value_ok accept
                t ws num feerate offered received = Ok sig ->
    exists (i : info) (c : content),
      decode sha pk_parse s t ws = Some i
      /\ c = normalize (mkContent num feerate (cs_value i) (b_value i) offered received)
      /\ value_ok = true /\ accept c = true
      /\ t = canon_tx sha rip s k c
      /\ ser_tx t = ser_tx (canon_tx sha rip s k c)
      /\ sig = sign funding_key (commit_sighash sha s (canon_tx sha rip s k c)).
Proof. exact phase1_canonical. Qed.
Print Assumptions C04_phase1_canonical.

(** The semantic entry point signs the canonical transaction of the content it validated, and
    the HTLC transactions of that commitment — one per HTLC of the content, in output order, each
    spending the canonical commitment transaction — with the tweaked HTLC key. *)
Theorem C04_phase2_sig :
  forall (sha rip : bytes -> bytes) (s : setup) (k : ckeys)
         (SK SIG : Type) (sign : SK -> bytes -> SIG) (funding_key htlc_key : SK) (value_ok : bool)
         (accept : content -> bool) (c : content) (sig : SIG) (hs : list SIG),
    sign_phase2 sha rip s k SK SIG sign funding_key htlc_key value_ok accept c = Ok (sig, hs) ->
    value_ok = true /\ accept (normalize c) = true
    /\ sig = sign funding_key (commit_sighash sha s (canon_tx sha rip s k c))
    /\ (exists hts, htlc_txs sha rip s k c = Some hts
                    /\ hs = map (fun x => sign htlc_key (htlc_sighash sha s x)) hts)
    /\ length hs = (length (c_offered c) + length (c_received c))%nat.
Proof.
  intros. pose proof (phase2_sig _ _ _ _ _ _ _ _ _ _ _ _ _ _ H) as [A [B [C D]]].
  repeat split; try assumption. eapply phase2_htlc_count. exact H.
Qed.
Print Assumptions C04_phase2_sig.

(** The decoder inverts the builder: for every content with script-readable expiries, decoding
    the canonical transaction with the canonical witness scripts succeeds and reads back the two
    balances (parse-after-build of each of the five script templates, first-match order of the
    template cascade, one to_local / to_remote at most, any output order). *)
Theorem C04_decode_roundtrip :
  forall (sha rip : bytes -> bytes) (pk_parse : bytes -> option bytes),
    (forall x, length (sha x) = 32%nat) -> (forall x, length (rip x) = 20%nat) ->
    forall (s : setup) (k : ckeys), wf pk_parse s k ->
    forall c : content, bounded c ->
    exists i, decode sha pk_parse s (canon_tx sha rip s k c) (canon_ws sha rip s k c) = Some i
              /\ cs_value i = c_to_holder c /\ b_value i = c_to_cp c.
Proof. exact decode_canon. Qed.
Print Assumptions C04_decode_roundtrip.

(** The canonical transaction does not depend on the order in which the HTLCs are supplied
    (phase 1 rebuilds from the lists sorted by [CommitmentInfo2::new], phase 2 from the caller's). *)
Theorem C04_canon_order_independent :
  forall (sha rip : bytes -> bytes) (s : setup) (k : ckeys) (c : content),
    canon_tx sha rip s k (normalize c) = canon_tx sha rip s k c.
Proof. exact canon_tx_normalize. Qed.
Print Assumptions C04_canon_order_independent.

(** On every content the semantic entry point signs, the raw entry point accepts the canonical
    transaction with the canonical witness scripts and returns the same signature. *)
Theorem C04_entry_points_agree :
  forall (sha rip : bytes -> bytes) (pk_parse : bytes -> option bytes) (s : setup) (k : ckeys)
         (SK SIG : Type) (sign : SK -> bytes -> SIG) (funding_key htlc_key : SK) (value_ok : bool)
         (accept : content -> bool),
    (forall x, length (sha x) = 32%nat) -> (forall x, length (rip x) = 20%nat) ->
    wf pk_parse s k ->
    (forall c, accept c = true -> bounded c) ->
    forall (c : content) (sig : SIG) (hs : list SIG),
      sign_phase2 sha rip s k SK SIG sign funding_key htlc_key value_ok accept c = Ok (sig, hs) ->
      sign_phase1 sha rip pk_parse s k SK SIG sign funding_key value_ok accept
                  (canon_tx sha rip s k c) (canon_ws sha rip s k c)
                  (c_num c) (c_feerate c) (c_offered c) (c_received c) = Ok sig.
Proof. exact entry_points_agree. Qed.
Print Assumptions C04_entry_points_agree.

(** the executable hash functions meet the length premises *)
Theorem C04_hash_lengths :
  (forall x, length (Sha256.sha256 x) = 32%nat) /\ (forall x, length (ripemd160 x) = 20%nat).
Proof. split; [exact sha256_length|exact ripemd160_length]. Qed.
Print Assumptions C04_hash_lengths.

Corollary C04_entry_points_agree_sha256 :
  forall (pk_parse : bytes -> option bytes) (s : setup) (k : ckeys)
         (SK SIG : Type) (sign : SK -> bytes -> SIG) (funding_key htlc_key : SK) (value_ok : bool)
         (accept : content -> bool),
    wf pk_parse s k ->
    (forall c, accept c = true -> bounded c) ->
    forall (c : content) (sig : SIG) (hs : list SIG),
      sign_phase2 Sha256.sha256 ripemd160 s k SK SIG sign funding_key htlc_key value_ok accept c
      = Ok (sig, hs) ->
      sign_phase1 Sha256.sha256 ripemd160 pk_parse s k SK SIG sign funding_key value_ok accept
                  (canon_tx Sha256.sha256 ripemd160 s k c) (canon_ws Sha256.sha256 ripemd160 s k c)
                  (c_num c) (c_feerate c) (c_offered c) (c_received c) = Ok sig.
Proof.
  intros pk s k SK SIG sign fk hk vo acc. apply entry_points_agree; [exact sha256_length|exact ripemd160_length].
Qed.
Print Assumptions C04_entry_points_agree_sha256.

(** Under an idealised signature scheme and an injective digest, a signature returned by either
    entry point verifies under the funding key against the canonical transaction and against no
    other transaction — in particular not against a transaction the caller merely supplied. *)
Theorem C04_no_foreign_tx :
  forall (sha rip : bytes -> bytes) (pk_parse : bytes -> option bytes) (s : setup) (k : ckeys)
         (SK SIG : Type) (sign : SK -> bytes -> SIG) (funding_key htlc_key : SK) (value_ok : bool)
         (accept : content -> bool)
         (PK : Type) (verify : PK -> bytes -> SIG -> bool) (funding_pub : PK),
    (forall m, verify funding_pub m (sign funding_key m) = true) ->
    (forall m m', verify funding_pub m' (sign funding_key m) = true -> m' = m) ->
    (forall t t', commit_sighash sha s t = commit_sighash sha s t' -> t = t') ->
    (forall t ws num feerate offered received sig,
       sign_phase1 sha rip pk_parse s k SK SIG sign funding_key value_ok accept
                   t ws num feerate offered received = Ok sig ->
       verify funding_pub (commit_sighash sha s t) sig = true
       /\ forall t', verify funding_pub (commit_sighash sha s t') sig = true -> t' = t)
    /\ (forall c sig hs,
       sign_phase2 sha rip s k SK SIG sign funding_key htlc_key value_ok accept c = Ok (sig, hs) ->
       verify funding_pub (commit_sighash sha s (canon_tx sha rip s k c)) sig = true
       /\ forall t', verify funding_pub (commit_sighash sha s t') sig = true -> t' = canon_tx sha rip s k c).
Proof.
  intros. split.
  - intros. eapply no_foreign_tx_phase1; eassumption.
  - intros. eapply no_foreign_tx_phase2; eassumption.
Qed.
Print Assumptions C04_no_foreign_tx.

(** The HTLC signatures of phase 2 bind in the same way, under the tweaked HTLC key: the j-th
    signature verifies against the BIP143 digest of the j-th HTLC transaction of the canonical
    commitment (witness script and amount of the output it spends) and against no other digest. *)
Theorem C04_htlc_sigs_bind :
  forall (sha rip : bytes -> bytes) (s : setup) (k : ckeys)
         (SK SIG : Type) (sign : SK -> bytes -> SIG) (funding_key htlc_key : SK) (value_ok : bool)
         (accept : content -> bool)
         (PK : Type) (verify : PK -> bytes -> SIG -> bool) (htlc_pub : PK),
    (forall m, verify htlc_pub m (sign htlc_key m) = true) ->
    (forall m m', verify htlc_pub m' (sign htlc_key m) = true -> m' = m) ->
    forall c sig hs,
      sign_phase2 sha rip s k SK SIG sign funding_key htlc_key value_ok accept c = Ok (sig, hs) ->
      exists hts, htlc_txs sha rip s k c = Some hts
        /\ Forall2 (fun sg x => verify htlc_pub (htlc_sighash sha s x) sg = true
                                /\ forall m, verify htlc_pub m sg = true -> m = htlc_sighash sha s x) hs hts.
Proof.
  intros sha rip s k SK SIG sign fk hk vo acc PK verify hpub Hv Hb c sig hs H.
  apply phase2_sig in H. destruct H as [_ [_ [_ [hts [E ->]]]]].
  exists hts. split; [exact E|]. clear E.
  induction hts as [|x hts IH]; cbn [map]; constructor; [|exact IH].
  split; [apply Hv|]. intros m Hm. apply Hb. exact Hm.
Qed.
Print Assumptions C04_htlc_sigs_bind.

(** Handler level: the requests [SignRemoteCommitmentTx2] / [SignRemoteCommitmentTx] as the
      protocol handler hands them to the core ([wire_content]: msat amounts truncated to whole
      satoshis, side 1 = offered by the counterparty, side 0 = received, other sides dropped).
      The semantic request is answered with the signature of the canonical transaction of exactly
      that content — every HTLC output is worth floor(amount_msat / 1000) — and the raw request
      accepts that canonical transaction and returns the same signature. *)
Theorem C04_wire_binding :
  forall (sha rip : bytes -> bytes) (pk_parse : bytes -> option bytes) (s : setup) (k : ckeys)
         (SK SIG : Type) (sign : SK -> bytes -> SIG) (funding_key htlc_key : SK) (value_ok : bool)
         (accept : content -> bool),
    (forall x, length (sha x) = 32%nat) -> (forall x, length (rip x) = 20%nat) ->
    wf pk_parse s k ->
    (forall c, accept c = true -> bounded c) ->
    forall (num feerate to_local to_remote : N) (l : list whtlc) (sig : SIG) (hs : list SIG),
      handle_sign_remote_commitment_tx2 sha rip s k SK SIG sign funding_key htlc_key value_ok accept
                                        num feerate to_local to_remote l = Ok (sig, hs) ->
      let c := wire_content num feerate to_local to_remote l in
      sig = sign funding_key (commit_sighash sha s (canon_tx sha rip s k c))
      /\ c_offered c = map wire_htlc (filter (fun w => w_side w =? 1) l)
      /\ c_received c = map wire_htlc (filter (fun w => w_side w =? 0) l)
      /\ (forall w, h_value (wire_htlc w) = w_msat w / 1000)
      /\ length hs = (length (c_offered c) + length (c_received c))%nat
      /\ handle_sign_remote_commitment_tx sha rip pk_parse s k SK SIG sign funding_key value_ok accept
           (canon_tx sha rip s k c) (canon_ws sha rip s k c) num feerate l = Ok sig.
Proof.
  intros sha rip pk s k SK SIG sign fk hk vo acc Hs Hr W Hb num fr tl tr l sig hs H c.
  unfold handle_sign_remote_commitment_tx2 in H. fold c in H.
  pose proof (phase2_sig _ _ _ _ _ _ _ _ _ _ _ _ _ _ H) as [_ [_ [E _]]].
  repeat split; try reflexivity; try exact E.
  - eapply phase2_htlc_count. exact H.
  - unfold handle_sign_remote_commitment_tx.
    exact (entry_points_agree sha rip pk s k SK SIG sign fk hk vo acc Hs Hr W Hb c sig hs H).
Qed.
Print Assumptions C04_wire_binding.

(** BOLT-3 trimming.  [bolt3_tx] is the commitment transaction of a content per BOLT-3: HTLCs
      below the dust limit plus the fee of their second-stage transaction (663 / 703 weight units
      at the commitment's fee rate; none on zero-fee-anchor channels) have no output.  LDK's
      builder, as the signer drives it, emits every HTLC it is given; so the signed transaction is
      the BOLT-3 one because - and only because - validation refuses a content with a trimmed
      HTLC.  Stated with that as the premise on [accept], and discharged for the validator model
      of C05 in [C04_validated_contents_untrimmed]. *)
Theorem C04_bolt3_trimming :
  forall (sha rip : bytes -> bytes) (s : setup) (k : ckeys)
         (SK SIG : Type) (sign : SK -> bytes -> SIG) (funding_key htlc_key : SK) (value_ok : bool)
         (accept : content -> bool),
    (forall c, accept c = true -> no_trimmed s c) ->
    forall (c : content) (sig : SIG) (hs : list SIG),
      sign_phase2 sha rip s k SK SIG sign funding_key htlc_key value_ok accept c = Ok (sig, hs) ->
      no_trimmed s c
      /\ bolt3_tx sha rip s k c = canon_tx sha rip s k c
      /\ sig = sign funding_key (commit_sighash sha s (bolt3_tx sha rip s k c))
      /\ exists hts, bolt3_htlc_txs sha rip s k c = Some hts
                     /\ hs = map (fun x => sign htlc_key (htlc_sighash sha s x)) hts.
Proof.
  intros sha rip s k SK SIG sign fk hk vo acc Hacc c sig hs H.
  pose proof (phase2_sig _ _ _ _ _ _ _ _ _ _ _ _ _ _ H) as [_ [Ha [E [hts [Eh Ehs]]]]].
  assert (Hn : no_trimmed s c) by (apply no_trimmed_normalize; apply Hacc; exact Ha).
  destruct (bolt3_untrimmed sha rip s k c Hn) as [B1 [_ B3]].
  split; [exact Hn|]. split; [exact B1|]. rewrite B1. split; [exact E|].
  exists hts. rewrite B3. split; assumption.
Qed.
Print Assumptions C04_bolt3_trimming.

(** The raw HTLC-transaction entry point ([sign_counterparty_htlc_tx] / [SignRemoteHtlcTx];
      with the holder's keys and the other delay in [s], [k] also [sign_holder_htlc_tx]).  A
      signature is returned only when the BIP143 digest of the supplied transaction equals the
      digest of the second-stage transaction REBUILT from the channel's parameters (delay,
      revocation and delayed keys), the direction read from the redeemscript and the commitment
      txid / output index / expiry / fee read from the request; and the signature is over the
      digest of that rebuilt transaction.  [accept_htlc] (the filterable [validate_htlc_tx]) is
      universally quantified: no policy filter can make the signer sign another digest. *)
Theorem C04_htlc_phase1_recomposed :
  forall (sha : bytes -> bytes) (s : setup) (k : ckeys)
         (SK SIG : Type) (sign : SK -> bytes -> SIG) (htlc_key : SK)
         (accept_htlc : N -> bool -> N -> bool)
         (t : tx) (redeem : bytes) (amount : N) (sig : SIG),
    sign_htlc_phase1 sha s k SK SIG sign htlc_key accept_htlc t redeem amount = Ok sig ->
    exists i0 ins o0 outs feerate offered re,
      t_ins t = i0 :: ins /\ t_outs t = o0 :: outs
      /\ htlc_side s redeem = Some offered
      /\ htlc_tx sha s k (i_txid i0) feerate (i_vout i0) offered
                 (mkHtlc amount [] (if offered then t_lock t else 0)) = Some re
      /\ sighash sha t 0 redeem amount (htlc_sighash_type_p1 s)
         = sighash sha re 0 redeem amount (htlc_sighash_type_p1 s)
      /\ sig = sign htlc_key (sighash sha re 0 redeem amount (htlc_sighash_type_p1 s)).
Proof.
  intros sha s k SK SIG sign htlc_key accept_htlc t redeem amount sig.
  unfold sign_htlc_phase1, decode_htlc_tx.
  destruct (t_ins t) as [|i0 ins]; [discriminate|]. destruct (t_outs t) as [|o0 outs]; [discriminate|].
  destruct (htlc_side s redeem) as [offered|]; [|discriminate].
  destruct (amount <? o_value o0); [discriminate|].
  destruct (htlc_tx _ _ _ _ _ _ _ _) as [re|] eqn:Er; [|discriminate].
  destruct (bytes_eqb _ _) eqn:Ed; [|discriminate]. apply bytes_eqb_eq in Ed.
  destruct (accept_htlc _ _ _); [|discriminate]. intros [= <-].
  eexists i0, ins, o0, outs, _, offered, re. repeat split; try reflexivity; [exact Er|symmetry; exact Ed].
Qed.
Print Assumptions C04_htlc_phase1_recomposed.

(** The closed examples below run on the SHA-256 of Base/Sha256Eval.v, which the checker
    evaluates far more cheaply than the reference: the model reads its hash pointwise. *)
Ltac on_evaluator :=
  rewrite ?(sign_phase2_ext Sha256.sha256 Sha256Eval.sha256 ripemd160 _ _ Sha256Eval.sha256_eval),
    ?(sign_phase1_ext Sha256.sha256 Sha256Eval.sha256 ripemd160 _ _ _ Sha256Eval.sha256_eval),
    ?(commit_sighash_ext Sha256.sha256 Sha256Eval.sha256 _ Sha256Eval.sha256_eval),
    ?(canon_tx_ext Sha256.sha256 Sha256Eval.sha256 ripemd160 _ _ Sha256Eval.sha256_eval),
    ?(canon_ws_ext Sha256.sha256 Sha256Eval.sha256 ripemd160 _ _ Sha256Eval.sha256_eval).

(** Non-vacuity: a zero-fee-anchors commitment with three offered HTLCs (two of them identical)
      and no to_remote output, taken from a run of the harness (keys derived there with
      libsecp256k1).  Every premise of [C04_entry_points_agree_sha256] holds, phase 2 signs the
      commitment and three HTLC transactions, and phase 1 returns the same signature on the
      canonical transaction. *)
Definition ex_setup : setup :=
  mkSetup AnchorsZeroFeeHtlc true 16777215
    (hx "999214445141642fafa576ed80e98939ad8cb32c575f0922511c2e063a736405") 0 129
    (hx "02a7ff2bc0b94d471ac2ae608fd135478e13cd0eddaf2bd923efa61c72f2aa533f")
    (hx "03d290d69571ae0cc6d8da808e78e370784668064092ea51c0080bd2b46f2c289c")
    (hx "0357a17645d198f6a029c44030e7e8595581b0467744b6b76a6088cf51d846cb6d").
Definition ex_keys : ckeys :=
  mkKeys (hx "03e42df12a2836a2278d06f60f8f255ecebd472900d5e44d1b28f38af991951919")
         (hx "028229ed25f713d100dc3d16679e2604f8855352126b13789f9fe965b8f6db4542")
         (hx "03a9953d11da9a001be17506294e70a222b74ea99648bb42a4e09573486a88f807")
         (hx "02657bb777b6b494817541fa60474ae3aa26bb521b640ef6f99970d25daf608e9d")
         118792877075733.
Definition ex_content : content :=
  mkContent 1 2500 0 16622189
    [mkHtlc 42163 (hx "6ec9209483deba9c242c3b88089fa638182344a84a97e9afec5ace9c219372fa") 17;
     mkHtlc 65890 (hx "5157fd48c2f4743bdaebe7d90a4e99a104e81ba812afb2c826576e4b241b5c6c") 127;
     mkHtlc 42163 (hx "6ec9209483deba9c242c3b88089fa638182344a84a97e9afec5ace9c219372fa") 17]
    [].
(** stand-ins for the parameters: a parser that accepts 33-byte strings, a "signature" that
    records key and digest, a validator that accepts contents with readable expiries *)
Definition ex_pk (d : bytes) : option bytes := if Nat.eqb (length d) 33 then Some d else None.
Definition ex_sign (sk : N) (d : bytes) : N * bytes := (sk, d).
Definition ex_accept (c : content) : bool := forallb (fun h => h_cltv h <? 2 ^ 31) (c_received c).

Example C04_nonvacuous :
  wf ex_pk ex_setup ex_keys
  /\ (forall c, ex_accept c = true -> bounded c)
  /\ exists sig hs,
       sign_phase2 Sha256.sha256 ripemd160 ex_setup ex_keys N (N * bytes) ex_sign 7 8 true ex_accept
                   ex_content = Ok (sig, hs)
       /\ length hs = 3%nat
       /\ length (t_outs (canon_tx Sha256.sha256 ripemd160 ex_setup ex_keys ex_content)) = 6%nat
       /\ sign_phase1 Sha256.sha256 ripemd160 ex_pk ex_setup ex_keys N (N * bytes) ex_sign 7 true ex_accept
                      (canon_tx Sha256.sha256 ripemd160 ex_setup ex_keys ex_content)
                      (canon_ws Sha256.sha256 ripemd160 ex_setup ex_keys ex_content)
                      1 2500 (c_offered ex_content) (c_received ex_content) = Ok sig.
Proof.
  assert (Hwf : wf ex_pk ex_setup ex_keys)
    by (constructor; try (vm_compute; reflexivity); try (vm_compute; discriminate)).
  assert (Hb : forall c, ex_accept c = true -> bounded c).
  { intros c H. unfold bounded, ex_accept in *. rewrite forallb_forall in H. apply Forall_forall.
    intros h Hh. apply N.ltb_lt. apply H. exact Hh. }
  split; [exact Hwf|]. split; [exact Hb|].
  (* that phase 2 signs is read off its verdict alone; what it signs is not evaluated: the number
     of HTLC signatures is [C04_phase2_sig]'s, the answer of phase 1 [C04_entry_points_agree_sha256]'s *)
  assert (Hok : match sign_phase2 Sha256.sha256 ripemd160 ex_setup ex_keys N (N * bytes) ex_sign 7 8 true
                        ex_accept ex_content with Ok _ => true | _ => false end = true)
    by (on_evaluator; vm_compute; reflexivity).
  destruct (sign_phase2 _ _ _ _ _ _ _ _ _ _ _ _) as [[sig hs]|] eqn:E; [|discriminate].
  exists sig, hs. split; [reflexivity|]. split; [|split].
  - apply C04_phase2_sig in E. apply E.
  - (* sorting keeps the number of outputs, and counting the unsorted ones hashes nothing *)
    unfold canon_tx, sorted_entries; cbn [t_outs].
    rewrite map_length, (Permutation.Permutation_length
      (sort_entries_perm (entries Sha256.sha256 ripemd160 ex_setup ex_keys ex_content))).
    vm_compute. reflexivity.
  - exact (C04_entry_points_agree_sha256 _ _ _ _ _ _ _ _ _ _ Hwf Hb _ _ _ E).
Qed.

(** The deprecated non-zero-fee [Anchors] type (admitted by [setup_channel] only when
      [policy-channel-safe-type] is downgraded to a warning) is outside [wf], and must be: LDK's
      builder emits a p2wpkh to_remote and no anchors for it, which phase 2 signs, while phase 1's
      decoder refuses a p2wpkh output on a channel whose type says anchors.  Witness from a run of
      the harness (same answers from the implementation). *)
Definition ax_setup : setup :=
  mkSetup Anchors false 16777215
    (hx "aa834738b5c01096f16f5fd6c6365b7a0195588df16e058586ce9180a9e60674") 0 255
    (hx "031bf21c72a93fc1bf455c7f9a20fb1faad40260de4b688952e90af10198bcdb57")
    (hx "0303c04693a2b0c88cc90dffbfb33f224f0994d81749cb3f6da132991cec2442c6")
    (hx "034ba82537948e7e9f09996be305e1708e6cd4ea136336e7640df55405a1370b5f").
Definition ax_keys : ckeys :=
  mkKeys (hx "03b6fe7de7285541397b773abd33bc121acb6123650782797e9036aee4f2427a90")
         (hx "02b4721bccfa78c372af2ac1117b4543f6a3e570adf00985f2adace9dee254067b")
         (hx "029d7175d1d5dd947d4ffaa8cd373db51cfee8ae432bf1016e5b4f7730e2687a81")
         (hx "03e5e3771ad3e86c2903043ba6382e232a1dff6df690542e2f2a998c5b02bfc5e7")
         216526412697717.
Definition ax_content : content :=
  mkContent 1 15000 16603485 354 []
    [mkHtlc 32473 (hx "c07c258b25ef8463ba0f515f928304fda34c5a9e72605892753936cbade4b97a") 256;
     mkHtlc 76411 (hx "69c85a33b25f3bb43671825c38bbfc45837565f4baa03176caa1243dcac1e699") 65536;
     mkHtlc 39842 (hx "6674cb7038f9cddc1c01e1b74c1b265e8677c82b5c65240d3d500a42d7da338e") 499999999].

Example C04_anchors_type_refuted :
  exists s k c sig hs,
    s_ctype s = Anchors
    /\ sign_phase2 Sha256.sha256 ripemd160 s k N (N * bytes) ex_sign 7 8 true ex_accept c = Ok (sig, hs)
    /\ sign_phase1 Sha256.sha256 ripemd160 ex_pk s k N (N * bytes) ex_sign 7 true ex_accept
                   (canon_tx Sha256.sha256 ripemd160 s k c) (canon_ws Sha256.sha256 ripemd160 s k c)
                   (c_num c) (c_feerate c) (c_offered c) (c_received c) = Refused.
Proof.
  assert (Hok : match sign_phase2 Sha256.sha256 ripemd160 ax_setup ax_keys N (N * bytes) ex_sign 7 8 true
                        ex_accept ax_content with Ok _ => true | _ => false end = true)
    by (on_evaluator; vm_compute; reflexivity).
  destruct (sign_phase2 _ _ _ _ _ _ _ _ _ _ _ _) as [[sig hs]|] eqn:E; [|discriminate].
  exists ax_setup, ax_keys, ax_content, sig, hs.
  split; [reflexivity|]. split; [exact E|]. on_evaluator. vm_compute. reflexivity.
Qed.

(** Before the repair ([setup_channel] refuses a funding output index above 65535) the
      channel parameters handed to LDK carried [vout as u16]: the transaction that was signed
      spent another outpoint than the channel's.  With [canon_tx] as the specification, the old
      behaviour is "sign [canon_tx] of the setup with the truncated index", and that is a
      different transaction (replayed on the implementation by the harness: vout = 65536). *)
Definition truncate_vout (s : setup) : setup :=
  mkSetup (s_ctype s) (s_outbound s) (s_value s) (s_txid s) (s_vout s mod 65536) (s_delay s)
          (s_holder_funding s) (s_cp_funding s) (s_holder_payment s).
Lemma canon_outs_truncate sha rip s k c :
  t_outs (canon_tx sha rip (truncate_vout s) k c) = t_outs (canon_tx sha rip s k c).
Proof. destruct s. reflexivity. Qed.

Example C04_old_vout_truncation_refuted :
  exists s k c,
    canon_tx Sha256.sha256 ripemd160 (truncate_vout s) k c <> canon_tx Sha256.sha256 ripemd160 s k c
    /\ commit_sighash Sha256.sha256 (truncate_vout s) (canon_tx Sha256.sha256 ripemd160 (truncate_vout s) k c)
       <> commit_sighash Sha256.sha256 s (canon_tx Sha256.sha256 ripemd160 s k c).
Proof.
  pose (s := mkSetup (s_ctype ex_setup) true (s_value ex_setup) (s_txid ex_setup) 65536 (s_delay ex_setup)
                     (s_holder_funding ex_setup) (s_cp_funding ex_setup) (s_holder_payment ex_setup)).
  exists s, ex_keys, ex_content.
  split.
  - (* the two transactions differ in the outpoint they spend: nothing else is evaluated *)
    intros H. apply (f_equal t_ins) in H. vm_compute in H. discriminate.
  - (* the two digests have the hash of the outputs in common: it is evaluated once *)
    on_evaluator. unfold commit_sighash.
    rewrite (sighash_all Sha256Eval.sha256 (canon_tx Sha256Eval.sha256 ripemd160 (truncate_vout s) ex_keys ex_content)),
            (sighash_all Sha256Eval.sha256 (canon_tx Sha256Eval.sha256 ripemd160 s ex_keys ex_content)),
            (canon_outs_truncate Sha256Eval.sha256 ripemd160 s ex_keys ex_content).
    Sha256.evaluated
      (dsha Sha256Eval.sha256 (concat (map ser_out (t_outs (canon_tx Sha256Eval.sha256 ripemd160 s ex_keys ex_content))))) E.
    rewrite E. vm_compute. discriminate.
Qed.

Check C04_phase1_canonical.
Check C04_entry_points_agree.

(** The premise [accept_bounded] is what the validator of C05 guarantees: a content accepted
      by any of the four validator entry points of Model/CommitmentPolicy.v (under the
      non-permissive filter) has every HTLC expiry below MAX_CLTV_EXPIRY = 500 000 000 < 2^31
      ([C05_accept_implies_bounds], conjunct [expiry_bound]). *)
From VLS Require Model.CommitmentPolicy Props.C05.

Definition policy_info (c : content) : CommitmentPolicy.cinfo :=
  CommitmentPolicy.mkInfo true (c_to_holder c) (c_to_cp c)
    (map (fun h => (h_value h, h_cltv h)) (c_offered c))
    (map (fun h => (h_value h, h_cltv h)) (c_received c)) (c_feerate c).

Theorem C04_validated_contents_bounded :
  forall en prof warn pol e s cs (c : content),
    (forall t, warn t = false) ->
    CommitmentPolicy.max_feerate pol < U64.U32MAX ->
    CommitmentPolicy.heights_fit prof pol cs ->
    CommitmentPolicy.validate_entry en CommitmentPolicy.est_new prof warn pol e s cs (c_num c) (policy_info c)
    = CommitmentPolicy.Ok ->
    bounded c.
Proof.
  intros en prof warn pol e s cs c Hw Hm Hf H.
  pose proof (C05.C05_accept_implies_bounds en prof warn pol e s cs (c_num c) (policy_info c) Hw Hm Hf H)
    as [_ [_ [_ [_ [He _]]]]].
  unfold CommitmentPolicy.expiry_bound, policy_info in He. cbn in He.
  apply Forall_app in He. destruct He as [_ Hr]. unfold bounded.
  rewrite Forall_map in Hr. eapply Forall_impl; [|exact Hr].
  intros h [Hh _]. cbn in Hh. unfold CommitmentPolicy.MAX_CLTV_EXPIRY in Hh.
  change (2 ^ 31) with 2147483648. Lia.lia.
Qed.
Print Assumptions C04_validated_contents_bounded.

(** a content the validator of C05 accepts (non-permissive filter) has no trimmed HTLC: its
    [dust_bound] conjunct is the negation of [trimmed], HTLC by HTLC *)
Theorem C04_validated_contents_untrimmed :
  forall en prof warn pol e (ps : CommitmentPolicy.setup) cs (s : setup) (c : content),
    CommitmentPolicy.is_zero_fee_htlc (CommitmentPolicy.commitment_type ps) = is_zero_fee (s_ctype s) ->
    (forall t, warn t = false) ->
    CommitmentPolicy.max_feerate pol < U64.U32MAX ->
    CommitmentPolicy.heights_fit prof pol cs ->
    CommitmentPolicy.validate_entry en CommitmentPolicy.est_new prof warn pol e ps cs (c_num c) (policy_info c)
    = CommitmentPolicy.Ok ->
    no_trimmed s c.
Proof.
  intros en prof warn pol e ps cs s c Hz Hw Hm Hf H.
  pose proof (C05.C05_accept_implies_bounds en prof warn pol e ps cs (c_num c) (policy_info c) Hw Hm Hf H)
    as [_ [[_ [_ [Ho Hr]]] _]].
  unfold CommitmentPolicy.htlc_limit, policy_info in Ho, Hr. cbn in Ho, Hr. rewrite Hz in Ho, Hr.
  rewrite Forall_map in Ho, Hr. unfold no_trimmed, trimmed, htlc_trim_limit, htlc_weight, zf.
  split; (eapply Forall_impl; [|first [exact Ho|exact Hr]]); intros h Hh; cbn in Hh;
    apply N.ltb_ge; destruct (is_zero_fee (s_ctype s)); exact Hh.
Qed.
Print Assumptions C04_validated_contents_untrimmed.

