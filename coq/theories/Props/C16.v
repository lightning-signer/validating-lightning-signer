(** C16 — the key-version-value stores never roll back and agree with each other.
    The model (Model/Kvv.v) is the code with the repairs of notes/fixes/C16-*.patch; the [_refuted]
    examples at the end show the statements failing for the code as it was.

    Histories are lists of requests [op] (put / put_with_version / put_batch / delete / get /
    get_version / get_prefix / reopen / enter / prepare / commit / put_batch_unlogged) over arbitrary
    keys, versions and values; [m_run], [d_run], [c_run] are the states of the memory store, the disk
    store and the cloud-staged store after a history, started empty.  [vle a b]: if the key had
    version [a] it now has version [b >= a] (and is still there). *)
From VLS Require Import Base.U64 Base.Eqb Model.Kvv Proofs.KvvProofs.

(** a key's version never decreases - between any two points of any history *)
Theorem C16_mem_version_monotone :
  forall (p : profile) (pre post : list op) (k : key),
    vle (version_of (m_run p pre) k) (version_of (m_run p (pre ++ post)) k).
Proof.
  intros p pre post k. unfold m_run. rewrite fold_left_app. apply ele_vle, (m_run_keeps p post _ (m_run_sorted p pre)).
Qed.
Print Assumptions C16_mem_version_monotone.

Theorem C16_disk_version_monotone :
  forall (p : profile) (pre post : list op) (k : key),
    vle (version_of (table (d_run p pre)) k) (version_of (table (d_run p (pre ++ post))) k).
Proof.
  intros p pre post k. unfold d_run. rewrite fold_left_app.
  apply ele_vle, (d_run_keeps p post _ (conj (d_run_inv p pre) (d_run_sorted p pre))).
Qed.
Print Assumptions C16_disk_version_monotone.

(** the separately cached version ([get_version], the version checks) is the version in the
    table, after every history including reopen points *)
Theorem C16_disk_cache_is_table :
  forall (p : profile) (ops : list op) (k : key),
    lookup k (cache (d_run p ops)) = version_of (table (d_run p ops)) k.
Proof. intros p ops k. rewrite (d_run_inv p ops). apply lookup_versions_of. Qed.
Print Assumptions C16_disk_cache_is_table.

(** a write at the current version with different content, or below it, is refused and
    changes nothing - as a single write and as an entry of a batch (judged against the store
    as the entries before it leave it) *)
Theorem C16_mem_same_version_other_content_refused :
  forall (s : store) (k : key) (ver : N) (val0 val : value),
    lookup k s = Some (ver, val0) -> val0 <> val -> m_pwv s k ver val = (s, RErr).
Proof.
  intros s k ver val0 val L N. rewrite m_pwv_is_batch. apply (m_batch_refused s [] s); [reflexivity|].
  rewrite L. apply not_ele_other, N.
Qed.
Print Assumptions C16_mem_same_version_other_content_refused.

Theorem C16_mem_lower_version_refused :
  forall (s : store) (k : key) (v0 : N) (val0 : value) (ver : N) (val : value),
    lookup k s = Some (v0, val0) -> ver < v0 -> m_pwv s k ver val = (s, RErr).
Proof.
  intros s k v0 val0 ver val L N. rewrite m_pwv_is_batch. apply (m_batch_refused s [] s); [reflexivity|].
  rewrite L. apply not_ele_lower, N.
Qed.
Print Assumptions C16_mem_lower_version_refused.

Theorem C16_mem_batch_same_version_other_content_refused :
  forall (s : store) (l1 : list kvv) (s1 : store) (k : key) (ver : N) (val0 val : value) (l2 : list kvv),
    batch_go s l1 = Some s1 -> lookup k s1 = Some (ver, val0) -> val0 <> val ->
    m_batch s (l1 ++ (k, (ver, val)) :: l2) = (s, RErr).
Proof.
  intros s l1 s1 k ver val0 val l2 G L N. apply (m_batch_refused s l1 s1); [exact G|].
  rewrite L. apply not_ele_other, N.
Qed.
Print Assumptions C16_mem_batch_same_version_other_content_refused.

Theorem C16_mem_batch_lower_version_refused :
  forall (s : store) (l1 : list kvv) (s1 : store) (k : key) (v0 : N) (val0 : value) (ver : N) (val : value)
         (l2 : list kvv),
    batch_go s l1 = Some s1 -> lookup k s1 = Some (v0, val0) -> ver < v0 ->
    m_batch s (l1 ++ (k, (ver, val)) :: l2) = (s, RErr).
Proof.
  intros s l1 s1 k v0 val0 ver val l2 G L N. apply (m_batch_refused s l1 s1); [exact G|].
  rewrite L. apply not_ele_lower, N.
Qed.
Print Assumptions C16_mem_batch_lower_version_refused.

(** on disk, in every reachable state (healthy or with a poisoned cache mutex): not accepted,
    nothing changed *)
Theorem C16_disk_same_version_other_content_refused :
  forall (p : profile) (ops : list op) (k : key) (ver : N) (val0 val : value),
    let d := d_run p ops in
    lookup k (table d) = Some (ver, val0) -> val0 <> val ->
    fst (d_pwv d k ver val) = d /\ snd (d_pwv d k ver val) <> ROk.
Proof.
  intros p ops k ver val0 val d L N. apply d_pwv_refused; [apply d_run_inv|]. rewrite L. apply not_ele_other, N.
Qed.
Print Assumptions C16_disk_same_version_other_content_refused.

Theorem C16_disk_lower_version_refused :
  forall (p : profile) (ops : list op) (k : key) (v0 : N) (val0 : value) (ver : N) (val : value),
    let d := d_run p ops in
    lookup k (table d) = Some (v0, val0) -> ver < v0 ->
    fst (d_pwv d k ver val) = d /\ snd (d_pwv d k ver val) <> ROk.
Proof.
  intros p ops k v0 val0 ver val d L N. apply d_pwv_refused; [apply d_run_inv|]. rewrite L. apply not_ele_lower, N.
Qed.
Print Assumptions C16_disk_lower_version_refused.

Theorem C16_disk_batch_same_version_other_content_refused :
  forall (p : profile) (ops : list op) (l1 : list kvv) (s1 : store) (k : key) (ver : N) (val0 val : value)
         (l2 : list kvv),
    let d := d_run p ops in
    batch_go (table d) l1 = Some s1 -> lookup k s1 = Some (ver, val0) -> val0 <> val ->
    let '(d', r) := d_batch d (l1 ++ (k, (ver, val)) :: l2) in
    r <> ROk /\ table d' = table d /\ cache d' = cache d.
Proof.
  intros p ops l1 s1 k ver val0 val l2 d G L N.
  pose proof (d_batch_atomic d (l1 ++ (k, (ver, val)) :: l2) (d_run_inv p ops)) as H.
  destruct (d_batch d (l1 ++ (k, (ver, val)) :: l2)) as [d' r]. destruct H as [(_ & B & _)|H]; [|exact H].
  rewrite batch_go_app, G in B. apply batch_go_cons in B. destruct B as [B _]. rewrite L in B.
  destruct (not_ele_other _ _ _ N B).
Qed.
Print Assumptions C16_disk_batch_same_version_other_content_refused.

(** batched writes apply entirely or not at all: a refused batch leaves the store as it was;
    an accepted one leaves every key of the batch at its last entry and every other key
    untouched (there is no state in between: one function application) *)
Theorem C16_mem_batch_atomic :
  forall (s : store) (l : list kvv) (s' : store) (r : res),
    m_batch s l = (s', r) ->
    (r = RErr /\ s' = s) \/
    (r = ROk /\ batch_go s l = Some s' /\
     forall k, lookup k s' = match last_entry k l with Some e => Some e | None => lookup k s end).
Proof.
  intros s l s' r E. apply m_batch_atomic in E. destruct E as [E|[E G]]; [left; exact E|right].
  repeat split; auto. intros k. apply (batch_go_spec l s s' k G).
Qed.
Print Assumptions C16_mem_batch_atomic.

(** on disk table and version cache move together or not at all *)
Theorem C16_disk_batch_atomic :
  forall (p : profile) (ops : list op) (l : list kvv),
    let d := d_run p ops in
    let '(d', r) := d_batch d l in
    (r = ROk /\ batch_go (table d) l = Some (table d') /\ cache d' = versions_of (table d')) \/
    (r <> ROk /\ table d' = table d /\ cache d' = cache d).
Proof. intros p ops l d. apply d_batch_atomic, d_run_inv. Qed.
Print Assumptions C16_disk_batch_atomic.

(** reads return the last accepted write: after any history, [get k] holds the value (and the
    version, where the request named one) of the last write to [k] that was answered Ok(()),
    and nothing if there was none *)
Theorem C16_mem_get_last_accepted :
  forall (p : profile) (ops : list op) (k : key),
    agrees (lookup k (m_run p ops)) (last_write k (m_writes p [] ops)).
Proof.
  intros p ops k. pose proof (m_run_tracks p k ops [] None eq_refl) as H. rewrite later_none in H. exact H.
Qed.
Print Assumptions C16_mem_get_last_accepted.

Theorem C16_disk_get_last_accepted :
  forall (p : profile) (ops : list op) (k : key),
    agrees (lookup k (table (d_run p ops))) (last_write k (d_writes p d_init ops)).
Proof.
  intros p ops k. pose proof (d_run_tracks p k ops d_init eq_refl None eq_refl) as H.
  rewrite later_none in H. exact H.
Qed.
Print Assumptions C16_disk_get_last_accepted.

(** [get_prefix] (a range scan that stops at the first key without the prefix) returns exactly
    the entries [get] would return for the keys with that prefix, in key order *)
Theorem C16_get_prefix_is_get :
  forall (p : profile) (ops : list op) (q k : key) (e : vv),
    (In (k, e) (range_prefix q (m_run p ops)) <->
       is_prefix q k = true /\ lookup k (m_run p ops) = Some e) /\
    (In (k, e) (range_prefix q (table (d_run p ops))) <->
       is_prefix q k = true /\ lookup k (table (d_run p ops)) = Some e) /\
    ksorted (range_prefix q (m_run p ops)) /\ ksorted (range_prefix q (table (d_run p ops))).
Proof.
  intros p ops q k e. split; [|split; [|split]].
  - apply range_prefix_spec, m_run_sorted.
  - apply range_prefix_spec, d_run_sorted.
  - apply range_prefix_sorted, m_run_sorted.
  - apply range_prefix_sorted, d_run_sorted.
Qed.
Print Assumptions C16_get_prefix_is_get.

(** both give identical results for identical request sequences: the answers agree request by
    request up to and including the first panic (the only one there is: [put]/[delete] on a
    key at version 2^64-1 in a build with overflow checks); without a panic the answers, the
    contents and the cached versions are identical *)
Theorem C16_disk_refines_mem :
  forall (p : profile) (ops : list op),
    cut (d_trace p d_init ops) = cut (m_trace p [] ops) /\
    (~ In OAbort (m_trace p [] ops) ->
     d_trace p d_init ops = m_trace p [] ops /\
     table (d_run p ops) = m_run p ops /\
     cache (d_run p ops) = versions_of (m_run p ops) /\
     vpoison (d_run p ops) = false).
Proof.
  intros p ops. destruct (d_trace_sim p ops []) as [A B]. split; [exact A|].
  intros N. destruct (B N) as [E1 E2]. split; [exact E1|].
  unfold d_run, m_run. change d_init with (lift []). unfold dstep, mstep in E2. rewrite E2. cbn. auto.
Qed.
Print Assumptions C16_disk_refines_mem.

Theorem C16_disk_refines_mem_release :
  forall ops : list op,
    d_trace Release d_init ops = m_trace Release [] ops /\
    table (d_run Release ops) = m_run Release ops.
Proof.
  intros ops. destruct (C16_disk_refines_mem Release ops) as [_ H].
  destruct (H (m_trace_release ops [])) as (A & B & _). auto.
Qed.
Print Assumptions C16_disk_refines_mem_release.

(** the on-disk backend returns the same contents after being reopened - at any point of any
    history; on a healthy store reopening is the identity on the whole state *)
Theorem C16_reopen_id :
  forall (p : profile) (ops : list op),
    let d := d_run p ops in
    table (d_reopen d) = table d /\ cache (d_reopen d) = cache d /\
    (vpoison d = false -> d_reopen d = d).
Proof.
  intros p ops. cbn zeta. pose proof (d_run_inv p ops) as Hd. unfold d_reopen. cbn [table cache].
  repeat split; auto. intros P. rewrite (lift_eta _ Hd P) at 3. reflexivity.
Qed.
Print Assumptions C16_reopen_id.

(** the local store changes only by commit (any state, any request, repaired or not); the
    restore path put_batch_unlogged, which applies state fetched from external storage at
    start-up and is refused inside a transaction, is the one other writer - see the restore
    theorems below *)
Theorem C16_cloud_local_changes_only_by_commit :
  forall (fixed : bool) (p : profile) (sid : value) (c : cloud) (o : op),
    o <> Commit -> (forall l, o <> Unlogged l) -> local (fst (c_step_gen fixed p sid c o)) = local c.
Proof.
  intros f p sid c o N NU. destruct (c_step_effect f p sid c o) as [o c' S|nv L NV|e L|o l H]; try reflexivity.
  - apply S.
  - destruct H as [[-> _]|[-> _]]; [destruct N|destruct (NU l)]; reflexivity.
Qed.
Print Assumptions C16_cloud_local_changes_only_by_commit.

(** never lowers a version: what a transaction sees of a key ([get]/[get_version]: the staged
    entry, else the local one) never goes down, over any history in which every [enter] can
    increment the last-writer version ([enters_ok]; always true in a debug build); the
    store's own last-writer record is excluded here - [prepare] drops it from an otherwise
    empty log by design - and covered by the next theorem *)
Theorem C16_cloud_version_never_lowered :
  forall (p : profile) (sid : value) (pre post : list op) (k : key),
    enters_ok p sid c_init (pre ++ post) -> k <> WRITER ->
    vle (visv (c_run p sid pre) k) (visv (c_run p sid (pre ++ post)) k).
Proof.
  intros p sid pre post k. apply (c_from_vis_mono p sid c_init pre post k I).
Qed.
Print Assumptions C16_cloud_version_never_lowered.

Corollary C16_cloud_version_never_lowered_debug :
  forall (sid : value) (pre post : list op) (k : key),
    k <> WRITER -> vle (visv (c_run Debug sid pre) k) (visv (c_run Debug sid (pre ++ post)) k).
Proof. intros. apply C16_cloud_version_never_lowered; auto. apply enters_ok_debug. Qed.
Print Assumptions C16_cloud_version_never_lowered_debug.

(** the local store never lowers the version of any key (the last-writer record included),
    unconditionally *)
Theorem C16_cloud_local_version_never_lowered :
  forall (p : profile) (sid : value) (pre post : list op) (k : key),
    vle (version_of (local (c_run p sid pre)) k) (version_of (local (c_run p sid (pre ++ post))) k).
Proof. intros p sid pre post k. unfold c_run. rewrite fold_left_app. apply ele_vle, c_run_local_grows. Qed.
Print Assumptions C16_cloud_local_version_never_lowered.

(** a transaction reads its own writes by key: after an accepted write, [get] of that key
    answers that write, in every reachable state *)
Theorem C16_cloud_read_your_writes :
  forall (p : profile) (sid : value) (ops : list op),
    enters_ok p sid c_init ops ->
    let c := c_run p sid ops in
    (forall k ver val c', c_pwv c k ver val = (c', ROk) ->
       c_get c' k = (c', OVal (Some (ver, val)))) /\
    (forall k val c', c_put p c k val = (c', ROk) ->
       exists ver, c_get c' k = (c', OVal (Some (ver, val)))) /\
    (forall l c', c_batch c l = (c', ROk) ->
       forall k e, last_entry k l = Some e -> c_get c' k = (c', OVal (Some e))).
Proof.
  intros p sid ops EO c. pose proof (c_run_inv p sid ops EO) as Hi. repeat split.
  - intros k ver val c' E. apply c_pwv_ok in E; auto. destruct E as [H V].
    rewrite c_get_healthy, V, kcmp_refl; auto.
  - intros k val c' E. apply c_put_ok in E; auto. destruct E as (H & ver & V).
    exists ver. rewrite c_get_healthy, V; auto.
  - intros l c' E k e LE. destruct (c_batch_ok l c c' Hi E) as [H V].
    rewrite c_get_healthy, V, LE; auto. apply H. right. intros ->. discriminate LE.
Qed.
Print Assumptions C16_cloud_read_your_writes.

(** commit writes exactly the commit log and cannot fail, in every reachable state with an
    open transaction *)
Theorem C16_cloud_commit_writes_the_log :
  forall (p : profile) (sid : value) (ops : list op) (l : store),
    enters_ok p sid c_init ops ->
    let c := c_run p sid ops in
    cpoison c = false -> clog c = Some l ->
    exists s', c_commit c = (mkcloud s' None false, ROk) /\
               forall k, lookup k s' = match lookup k l with Some e => Some e | None => lookup k (local c) end.
Proof. intros p sid ops l EO c P L. apply c_commit_ok; auto. apply c_run_inv; auto. Qed.
Print Assumptions C16_cloud_commit_writes_the_log.

(** committed = reported: whenever a report [m] stands (the last [prepare] answered [m] and no
    write request, [enter] or [commit] came after it - reads may), [commit] succeeds and changes
    the local store by exactly the entries of [m], each of which is a real change.  Commits
    reached with no standing report are the known finding, see
    [C16_cloud_unreported_commit_refuted]. *)
Theorem C16_cloud_committed_is_reported :
  forall (p : profile) (sid : value) (ops : list op) (m : list kvv),
    enters_ok p sid c_init ops ->
    snd (c_run_rep p sid ops) = Some m ->
    let c := c_run p sid ops in
    exists s',
      c_commit c = (mkcloud s' None false, ROk) /\
      (forall k, lookup k s' = match lookup k m with Some e => Some e | None => lookup k (local c) end) /\
      Forall (fun e : kvv => lookup (fst e) (local c) <> Some (snd e)) m.
Proof.
  intros p sid ops m EO Q. cbn zeta. destruct (proj2 (c_run_rep_ok p sid ops) m Q) as [L P]. pose proof (c_run_inv p sid ops EO) as Hi.
  destruct (c_commit_ok _ m Hi P L) as (s' & E & Sp). exists s'. repeat split; auto.
  (* each entry of the log is strictly ahead of the local store *)
  unfold cinv in Hi. rewrite L in Hi. destruct Hi as [_ A]. revert A. apply Forall_impl.
  intros [k [ver val]]. unfold ahead_entry. cbn [fst snd]. intros A Q2. rewrite Q2 in A. cbn in A. lia.
Qed.
Print Assumptions C16_cloud_committed_is_reported.

(** * The restore path (put_batch_unlogged; histories above already range over it: on the plain
      stores it is put_batch, so monotonicity, atomicity, last-accepted-write, refinement hold
      for it as stated) *)

(** every record of a restored list, tombstones (empty values) included, is in the local
    store afterwards with its version *)
Theorem C16_restore_records_kept :
  forall (c : cloud) (l : list kvv) (c' : cloud),
    c_unlogged c l = (c', ROk) ->
    forall k e, last_entry k l = Some e -> lookup k (local c') = Some e.
Proof.
  intros c l c' E k e LE. destruct (c_unlogged_ok c l c' E) as (s' & -> & G).
  cbn [local]. rewrite (batch_go_spec l _ _ k G), LE. reflexivity.
Qed.
Print Assumptions C16_restore_records_kept.

(** so a later list serving one of those keys at a lower version - the replay of an older
    authentic copy, e.g. the pre-deletion record of a forgotten channel - is refused whole *)
Theorem C16_restore_replay_refused :
  forall (c : cloud) (l : list kvv) (c1 : cloud) (k : key) (n : N) (val : value),
    c_unlogged c l = (c1, ROk) -> last_entry k l = Some (n, val) ->
    forall (l2 : list kvv) (v : N) (x : value),
      In (k, (v, x)) l2 -> v < n -> c_unlogged c1 l2 = (c1, RErr).
Proof.
  intros c l c1 k n val E LE l2 v x I2 Lt. destruct (c_unlogged_ok c l c1 E) as (s1 & -> & G).
  unfold c_unlogged. cbn [cpoison clog local]. rewrite (replay_refused _ _ _ _ _ _ _ _ _ G LE I2 Lt). reflexivity.
Qed.
Print Assumptions C16_restore_replay_refused.

Theorem C16_plain_restore_replay_refused :
  forall (s : store) (l : list kvv) (s1 : store) (k : key) (n : N) (val : value),
    m_batch s l = (s1, ROk) -> last_entry k l = Some (n, val) ->
    forall (l2 : list kvv) (v : N) (x : value),
      In (k, (v, x)) l2 -> v < n -> m_batch s1 l2 = (s1, RErr).
Proof.
  intros s l s1 k n val E LE l2 v x I2 Lt. apply m_batch_atomic in E. destruct E as [[E _]|[_ G]]; [discriminate|].
  exact (replay_refused _ _ _ _ _ _ _ _ _ G LE I2 Lt).
Qed.
Print Assumptions C16_plain_restore_replay_refused.

(** the list is judged as the caller handed it over, repeated keys included: a list in which a
    key comes back at a lower version - or at the same version with other content - after an
    earlier entry of the same list is refused whole (nothing of it reaches the local store);
    [l1], [l2], [l3] are arbitrary *)
Theorem C16_restore_repeated_key_refused :
  forall (c : cloud) (l1 : list kvv) (k : key) (n : N) (x1 : value) (l2 : list kvv) (v : N) (x : value)
         (l3 : list kvv),
    v < n \/ (v = n /\ x <> x1) ->
    let l := l1 ++ (k, (n, x1)) :: l2 ++ (k, (v, x)) :: l3 in
    snd (c_unlogged c l) <> ROk /\ local (fst (c_unlogged c l)) = local c.
Proof.
  intros c l1 k n x1 l2 v x l3 H l. unfold c_unlogged.
  destruct (cpoison c), (clog c); try (split; [discriminate|reflexivity]).
  unfold m_batch, l. rewrite (batch_go_repeat_refused (local c) l1 k n x1 l2 v x l3 H).
  split; [discriminate|reflexivity].
Qed.
Print Assumptions C16_restore_repeated_key_refused.

Theorem C16_plain_restore_repeated_key_refused :
  forall (s : store) (l1 : list kvv) (k : key) (n : N) (x1 : value) (l2 : list kvv) (v : N) (x : value)
         (l3 : list kvv),
    v < n \/ (v = n /\ x <> x1) ->
    m_batch s (l1 ++ (k, (n, x1)) :: l2 ++ (k, (v, x)) :: l3) = (s, RErr).
Proof.
  intros s l1 k n x1 l2 v x l3 H. unfold m_batch. rewrite (batch_go_repeat_refused s l1 k n x1 l2 v x l3 H). reflexivity.
Qed.
Print Assumptions C16_plain_restore_repeated_key_refused.

(** the local store of a disk-backed cloud store never lowers the version of any key over any
    history with restarts ([cr_run]: a restart drops the open transaction, keeps the disk) *)
Theorem C16_cloud_restart_local_version_never_lowered :
  forall (p : profile) (sid : value) (pre post : list op) (k : key),
    vle (version_of (local (cr_run p sid pre)) k) (version_of (local (cr_run p sid (pre ++ post))) k).
Proof. intros p sid pre post k. unfold cr_run. rewrite fold_left_app. apply ele_vle, cr_run_local_grows. Qed.
Print Assumptions C16_cloud_restart_local_version_never_lowered.

(** non-vacuity: a fresh replica restores a list holding a tombstone for a key it never saw;
    after a restart the older live copy of that key is refused *)
Example C16_nonvacuous_restore :
  let ops := [Unlogged [([97], (3, [])); ([98], (0, [120]))]; Reopen] in
  local (cr_run Debug (repeat 7 16) ops) = [([97], (3, [])); ([98], (0, [120]))] /\
  snd (cr_step Debug (repeat 7 16) (cr_run Debug (repeat 7 16) ops) (Unlogged [([98], (0, [120])); ([97], (1, [120]))])) = OErr /\
  snd (cr_step Debug (repeat 7 16) (cr_run Debug (repeat 7 16) ops) (Unlogged [([97], (3, []))])) = OUnit.
Proof. vm_compute. repeat split. Qed.
(** ... and a list replaying the old record after the current one is refused, while the same
    two records oldest first are accepted *)
Example C16_nonvacuous_repeated_key :
  snd (c_unlogged c_init [([97], (1, [120])); ([97], (0, [121]))]) = RErr /\
  snd (c_unlogged c_init [([97], (1, [120])); ([97], (1, [121]))]) = RErr /\
  c_unlogged c_init [([97], (0, [121])); ([97], (1, [120])); ([97], (1, [120]))] =
    (mkcloud [([97], (1, [120]))] None false, ROk).
Proof. vm_compute. repeat split. Qed.

Definition kA : key := [97].
Definition kB : key := [98].
Definition vX : value := [120].
Definition vY : value := [121].
Definition sid0 : value := repeat 7 16.

(** a history with accepted and refused writes, a batch with a repeated key and a reopen point,
    on which the hypotheses of the theorems above hold *)
Example C16_nonvacuous_plain :
  let ops := [PutV kA 1 vX; Put kA vY; PutV kA 2 vX; Batch [(kA, (3, vX)); (kB, (0, vY)); (kA, (3, vX))];
              Reopen; PutV kA 3 vY; Delete kB] in
  m_trace Debug [] ops = [OUnit; OUnit; OErr; OUnit; OUnit; OErr; OUnit] /\
  d_trace Debug d_init ops = m_trace Debug [] ops /\
  table (d_run Debug ops) = [(kA, (3, vX)); (kB, (1, []))] /\
  lookup kA (m_run Debug ops) = Some (3, vX) /\
  last_write kA (m_writes Debug [] ops) = Some (Some 3, vX).
Proof. vm_compute. repeat split. Qed.

(** a transaction whose report stands at commit time, with a non-empty report *)
Example C16_nonvacuous_cloud :
  let ops := [Enter; Put kA vX; Put kA vY; PutV kB 4 vX; Prepare; Get kA] in
  enters_ok Release sid0 c_init ops /\
  snd (c_run_rep Release sid0 ops) = Some [(WRITER, (0, sid0)); (kA, (0, vY)); (kB, (4, vX))] /\
  visv (c_run Release sid0 ops) kB = Some 4 /\
  fst (c_commit (c_run Release sid0 ops)) =
    mkcloud [(WRITER, (0, sid0)); (kA, (0, vY)); (kB, (4, vX))] None false.
Proof.
  split.
  - intros pre post E. right. destruct pre as [|o pre'].
    + vm_compute. exact I.
    + exfalso. cbn [app] in E. inversion E as [[Eo Et]].
      assert (In Enter (pre' ++ Enter :: post)) as H by (apply in_or_app; right; left; reflexivity).
      rewrite <- Et in H. cbn in H. intuition discriminate.
  - vm_compute. repeat split.
Qed.

(** put_with_version 5 then 3 inside one transaction: the visible version went 5 -> 3
    (F12; [c_step_gen false] is the store without the staged-version check) *)
Definition c_run_old (p : profile) (sid : value) (ops : list op) : cloud :=
  fold_left (fun c o => fst (c_step_gen false p sid c o)) ops c_init.
Example C16_old_cloud_version_lowered_refuted :
  exists (pre post : list op) (k : key),
    k <> WRITER /\
    ~ vle (visv (c_run_old Debug sid0 pre) k) (visv (c_run_old Debug sid0 (pre ++ post)) k).
Proof.
  exists [Enter; PutV kA 5 vX], [PutV kA 3 vY], kA. split; [discriminate|].
  vm_compute. intros H. apply H. reflexivity.
Qed.
(** ... while the repaired store refuses the second write *)
Example C16_cloud_version_lowered_fixed :
  snd (c_step Debug sid0 (c_run Debug sid0 [Enter; PutV kA 5 vX]) (PutV kA 3 vY)) = OErr.
Proof. vm_compute. reflexivity. Qed.

(** put_batch [a@2=x; a@1=z] on a store holding a@1=z: the memory store answered Ok (and
    ended at a@1=z), the disk store answered VersionMismatch *)
Example C16_old_batch_backends_disagree_refuted :
  exists (s : store) (l : list kvv),
    snd (m_batch_old s l) <> snd (d_batch_old (mkdisk s (versions_of s) false) l).
Proof.
  exists [(kA, (1, [122]))], [(kA, (2, vX)); (kA, (1, [122]))]. vm_compute. discriminate.
Qed.
Example C16_batch_backends_agree_fixed :
  let s := [(kA, (1, [122]))] in let l := [(kA, (2, vX)); (kA, (1, [122]))] in
  snd (m_batch s l) = RErr /\ snd (d_batch (mkdisk s (versions_of s) false) l) = RErr.
Proof. vm_compute. split; reflexivity. Qed.

(** known finding (still in the code): a write between prepare and commit is committed although
    it was never reported - the report no longer stands at commit time *)
Example C16_cloud_unreported_commit_refuted :
  let ops := [Enter; Put kA vX; Prepare; Put kB vY] in
  exists m, snd (c_step Debug sid0 (c_run Debug sid0 [Enter; Put kA vX]) Prepare) = OList m /\
            lookup kB m = None /\
            snd (c_run_rep Debug sid0 ops) = None /\
            lookup kB (local (fst (c_commit (c_run Debug sid0 ops)))) = Some (0, vY).
Proof. eexists. vm_compute. repeat split. Qed.

From Coq Require Import String.
From Coq Require Import List.
From VLS Require Base.Rust Gen.KvvGen Proofs.KvvGenProofs.

(** MemoryKVVStore::put_with_version, ::get_version, ::put and ::delete (vls-persist/src/kvv/memory.rs, whole
    bodies, translated on every run into Gen/KvvGen.v: the lock of the map, `data.get(key)`,
    `if let Some((ver, val)) = existing`, the `<` / `==` / `!=` tests with their early returns, `data.insert`,
    `get_version(key)?.map(|v| v + 1).unwrap_or(0)` in the arithmetic of the build profile) are the model's
    [m_pwv] / [version_of] / [m_put] (Delete = put of the empty value), on every store, key, version and value:
    an accepted call leaves exactly the model's store, a refusal is Err(Error::VersionMismatch) where the model
    says RErr, a panic where it says RAbort ([of_mres]); a call that is not accepted leaves the model's store as
    it was - the translator refuses a function that writes before it returns an error. *)
Theorem C16_mem_version_rule_is_source :
  forall (prof : profile) (s : store) (k : key) (ver : N) (val : value),
    KvvGen.gen_MemoryKVVStore_put_with_version prof (KvvGen.mk_MemoryKVVStore s) k ver val =
      KvvGenProofs.of_mres (m_pwv s k ver val) /\
    KvvGen.gen_MemoryKVVStore_get_version prof (KvvGen.mk_MemoryKVVStore s) k = Val (Rust.OkR (version_of s k)) /\
    KvvGen.gen_MemoryKVVStore_put prof (KvvGen.mk_MemoryKVVStore s) k val = KvvGenProofs.of_mres (m_put prof s k val) /\
    KvvGen.gen_MemoryKVVStore_delete prof (KvvGen.mk_MemoryKVVStore s) k = KvvGenProofs.of_mres (m_put prof s k []) /\
    (snd (m_pwv s k ver val) <> ROk -> fst (m_pwv s k ver val) = s) /\
    (snd (m_put prof s k val) <> ROk -> fst (m_put prof s k val) = s).
Proof.
  intros. repeat split.
  - apply KvvGenProofs.gen_pwv_is_model.
  - apply KvvGenProofs.gen_get_version_is_model.
  - apply KvvGenProofs.gen_put_is_model.
  - apply KvvGenProofs.gen_delete_is_model.
  - apply KvvGenProofs.m_pwv_refusal_keeps.
  - apply KvvGenProofs.m_put_refusal_keeps.
Qed.
Print Assumptions C16_mem_version_rule_is_source.

(** MemoryKVVStore::put_batch (whole body, translated: the local `staged` map, the loop over the entries with
    `staged.get(&key).or_else(|| data.get(&key))`, `continue`, the early `return Err(..)`, and the second loop that
    inserts the staged entries in key order) is the model's [m_batch]: on every sorted store (a BTreeMap) and every
    list of entries it accepts exactly when [batch_go] - every entry judged against the store as left by the
    entries before it - accepts, and then leaves exactly the model's store; otherwise Err(Error::VersionMismatch)
    with nothing written. *)
Theorem C16_mem_batch_is_source :
  forall (prof : profile) (s : store) (l : list kvv),
    ksorted s ->
    KvvGen.gen_MemoryKVVStore_put_batch prof (KvvGen.mk_MemoryKVVStore s) l = KvvGenProofs.of_mres (m_batch s l).
Proof. exact KvvGenProofs.gen_put_batch_is_model. Qed.
Print Assumptions C16_mem_batch_is_source.

(** The staging rule of the cloud store is the source's.  CloudKVVStore::put_with_version, ::put and ::delete
    (vls-persist/src/kvv/cloud.rs, whole bodies, translated with L = MemoryKVVStore: the guard of the commit log -
    a poisoned mutex panics -, `as_mut().expect("not in transaction")`, the staged-version test, the calls
    `self.local.get_version(key)?` / `self.local.get(key)?.expect(..)` into the translated memory store, `existing.1 != value`,
    `commit_log.insert`) are the model's [c_pwv] / [c_put] on every state [c] (local store, commit log or none,
    poisoned flag), key, version and value: an accepted call leaves exactly the model's state, a refusal is
    Err(Error::VersionMismatch) where the model says RErr (and the model's state is then unchanged), and the generated
    function panics exactly where the model says RAbort.  NOT covered: the state after a panic - the model poisons
    the commit-log mutex ([c_poison]); the generated side has no state after a panic. *)
Theorem C16_cloud_staging_is_source :
  forall (prof : profile) (c : cloud) (k : key) (ver : N) (val : value),
    KvvGen.gen_CloudKVVStore_put_with_version prof (KvvGenProofs.conc c) k ver val =
      KvvGenProofs.of_cres (c_pwv c k ver val) /\
    KvvGen.gen_CloudKVVStore_put prof (KvvGenProofs.conc c) k val = KvvGenProofs.of_cres (c_put prof c k val) /\
    KvvGen.gen_CloudKVVStore_delete prof (KvvGenProofs.conc c) k = KvvGenProofs.of_cres (c_put prof c k []) /\
    (snd (c_pwv c k ver val) = RErr -> fst (c_pwv c k ver val) = c).
Proof.
  intros. repeat split.
  - apply KvvGenProofs.gen_cloud_pwv_is_model.
  - apply KvvGenProofs.gen_cloud_put_is_model.
  - apply KvvGenProofs.gen_cloud_delete_is_model.
  - apply KvvGenProofs.c_pwv_refusal_keeps.
Qed.
Print Assumptions C16_cloud_staging_is_source.

Check C16_disk_refines_mem.
