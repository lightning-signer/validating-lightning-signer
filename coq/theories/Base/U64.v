(** Machine integers of the Rust code, modelled on [N] with the wrap / checked /
    saturating behaviour written out explicitly. *)
From Coq Require Export PeanoNat NArith List Bool Lia.
From Coq Require Import ZifyBool ZifyN ZifyNat.
Export ListNotations.
Open Scope N_scope.

Arguments N.add : simpl never.
Arguments N.sub : simpl never.
Arguments N.mul : simpl never.
Arguments N.div : simpl never.
Arguments N.modulo : simpl never.
Arguments N.eqb : simpl never.
Arguments N.ltb : simpl never.
Arguments N.leb : simpl never.
Arguments N.min : simpl never.
Arguments N.max : simpl never.
Arguments N.pow : simpl never.

Definition U64MAX : N := 18446744073709551615.
Definition U32MAX : N := 4294967295.
Definition U16MAX : N := 65535.
Definition two64 : N := 18446744073709551616.
Definition two32 : N := 4294967296.

(** build profile: debug builds trap on overflow, release builds wrap *)
Inductive profile := Debug | Release.

Inductive trap (A : Type) := Val (a : A) | Trap.
Arguments Val {A} a.
Arguments Trap {A}.

Definition sat_add (a b : N) : N := N.min (a + b) U64MAX.
Definition sat_sub (a b : N) : N := a - b.   (* N subtraction already truncates at 0 *)
Definition add_checked (a b : N) : option N := if a + b <=? U64MAX then Some (a + b) else None.
Definition sub_checked (a b : N) : option N := if b <=? a then Some (a - b) else None.
Definition mul_checked (a b : N) : option N := if a * b <=? U64MAX then Some (a * b) else None.
Definition add_wrap (a b : N) : N := (a + b) mod two64.
Definition sub_wrap (a b : N) : N := (a + two64 - b) mod two64.
Definition mul_wrap (a b : N) : N := (a * b) mod two64.
Definition as_u32 (a : N) : N := a mod two32.

(** plain [+], [-], [*] on u64 under a build profile *)
Definition add_p (p : profile) (a b : N) : trap N :=
  match p with
  | Debug => if a + b <=? U64MAX then Val (a + b) else Trap
  | Release => Val (add_wrap a b)
  end.
Definition sub_p (p : profile) (a b : N) : trap N :=
  match p with
  | Debug => if b <=? a then Val (a - b) else Trap
  | Release => Val (sub_wrap a b)
  end.
Definition mul_p (p : profile) (a b : N) : trap N :=
  match p with
  | Debug => if a * b <=? U64MAX then Val (a * b) else Trap
  | Release => Val (mul_wrap a b)
  end.

Fixpoint sum_N (l : list N) : N := match l with [] => 0 | x :: t => x + sum_N t end.
Definition sat_sum (l : list N) : N := fold_left sat_add l 0.

Lemma sat_add_le a b : sat_add a b <= U64MAX.
Proof. unfold sat_add, U64MAX in *; lia. Qed.

Lemma sat_add_exact a b : a + b <= U64MAX -> sat_add a b = a + b.
Proof. unfold sat_add, U64MAX in *; lia. Qed.

Lemma sat_add_small a b l : l < U64MAX -> sat_add a b <= l -> a + b <= l.
Proof. unfold sat_add, U64MAX in *; lia. Qed.

Lemma sum_N_app l1 l2 : sum_N (l1 ++ l2) = sum_N l1 + sum_N l2.
Proof. induction l1 as [|x l1 IH]; cbn [sum_N app] in *; lia. Qed.

Lemma sat_sum_from l : forall acc, acc + sum_N l <= U64MAX ->
  fold_left sat_add l acc = acc + sum_N l.
Proof.
  induction l as [|x l IH]; intros acc H; cbn [fold_left sum_N] in *.
  - lia.
  - rewrite IH; rewrite sat_add_exact; lia.
Qed.

Lemma sat_sum_exact l : sum_N l <= U64MAX -> sat_sum l = sum_N l.
Proof. intros H. unfold sat_sum. rewrite sat_sum_from; lia. Qed.

Lemma U64MAX_two64 : two64 = U64MAX + 1.
Proof. reflexivity. Qed.

Lemma mod_wrap x m : m <= x -> x mod m <= x - m.
Proof.
  intros H. destruct (N.eq_dec m 0) as [->|Hm]; [rewrite N.sub_0_r; destruct x; cbn; lia|].
  rewrite <- (N.sub_add m x H) at 1. rewrite <- (N.mul_1_l m) at 2. rewrite N.mod_add by exact Hm.
  apply N.mod_le, Hm.
Qed.

Lemma add_p_max prof a b v : add_p prof a b = Val v -> v <= U64MAX.
Proof.
  unfold add_p, add_wrap. destruct prof.
  - destruct (a + b <=? U64MAX) eqn:E; intros [= <-]. lia.
  - intros [= <-]. pose proof (N.mod_upper_bound (a + b) two64 ltac:(discriminate)) as Hu.
    rewrite U64MAX_two64 in *. lia.
Qed.

Lemma add_p_upper prof a b v : add_p prof a b = Val v -> v <= a + b.
Proof.
  unfold add_p, add_wrap. destruct prof.
  - destruct (a + b <=? U64MAX); intros H; inversion H; lia.
  - intros H; inversion H; subst. apply N.mod_le. discriminate.
Qed.

Lemma add_p_exact prof a b v : add_p prof a b = Val v -> a <= U64MAX -> b <= v -> v = a + b.
Proof.
  unfold add_p, add_wrap. intros H Ha Hb. destruct prof.
  - destruct (a + b <=? U64MAX); inversion H; reflexivity.
  - injection H as <-. destruct (N.lt_ge_cases (a + b) two64) as [Hlt|Hge]; [apply N.mod_small, Hlt|].
    pose proof (mod_wrap _ _ Hge) as Hw. rewrite U64MAX_two64 in *. lia.
Qed.

(** [lia] does not know that an [N] quotient is non-negative once it has been moved to [Z];
    [dlia] first abstracts every quotient (and remainder) as a fresh [N] variable. *)
Ltac abs_div :=
  repeat match goal with
  | |- context [ ?a / ?b ] => let q := fresh "q" in set (q := a / b) in *; clearbody q
  | H : context [ ?a / ?b ] |- _ => let q := fresh "q" in set (q := a / b) in *; clearbody q
  | |- context [ ?a mod ?b ] => let q := fresh "r" in set (q := a mod b) in *; clearbody q
  | H : context [ ?a mod ?b ] |- _ => let q := fresh "r" in set (q := a mod b) in *; clearbody q
  end.
Ltac dlia := abs_div; lia.
