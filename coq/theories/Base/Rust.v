(** Meaning of the Rust fragment that tools/gen_rustfn.py translates (statement by statement)
    into Gallina: u64 / usize arithmetic under a build profile, Vec<u64> operations, loops.
    A panic is [Trap]; statements are sequenced in the [trap] monad.  The target is 64-bit:
    usize = u64, and [as u64] / [as usize] between u32, u64 and usize values that fit are the
    identity. *)
From VLS Require Export Base.U64.

Definition bindT {A B} (x : trap A) (f : A -> trap B) : trap B :=
  match x with Val a => f a | Trap => Trap end.
Notation "x <- e ;; k" := (bindT e (fun x => k)) (at level 61, e at next level, right associativity).
Notation "' p <- e ;; k" := (bindT e (fun p => k)) (at level 61, p pattern, e at next level, right associativity).

(** [/] and [%] panic on a zero divisor in every build profile *)
Definition div_p (a b : N) : trap N := if b =? 0 then Trap else Val (a / b).
Definition rem_p (a b : N) : trap N := if b =? 0 then Trap else Val (a mod b).

(** plain [+] and [-] on u32 under a build profile *)
Definition add32_p (p : profile) (a b : N) : trap N :=
  match p with
  | Debug => if a + b <=? U32MAX then Val (a + b) else Trap
  | Release => Val ((a + b) mod two32)
  end.
Definition sub32_p (p : profile) (a b : N) : trap N :=
  match p with
  | Debug => if b <=? a then Val (a - b) else Trap
  | Release => Val ((a + two32 - b) mod two32)
  end.

(** plain [+] and [*] on u128 under a build profile *)
Definition two128 : N := 340282366920938463463374607431768211456.
Definition add128_p (p : profile) (a b : N) : trap N :=
  match p with
  | Debug => if a + b <? two128 then Val (a + b) else Trap
  | Release => Val ((a + b) mod two128)
  end.
Definition mul128_p (p : profile) (a b : N) : trap N :=
  match p with
  | Debug => if a * b <? two128 then Val (a * b) else Trap
  | Release => Val ((a * b) mod two128)
  end.

(** Vec<u64> *)
Definition vec_len (v : list N) : N := N.of_nat (length v).
(** Vec::resize(new_len, value) *)
Definition vec_resize (v : list N) (n : N) (x : N) : list N :=
  firstn (N.to_nat n) v ++ repeat x (N.to_nat n - length v).
(** Vec::insert(index, element): panics if index > len *)
Definition vec_insert (v : list N) (i x : N) : trap (list N) :=
  if vec_len v <? i then Trap else Val (firstn (N.to_nat i) v ++ x :: skipn (N.to_nat i) v).
(** v[i] : panics if out of bounds *)
Definition vec_get (v : list N) (i : N) : trap N :=
  match nth_error v (N.to_nat i) with Some x => Val x | None => Trap end.
(** v[i] = x *)
Definition vec_set (v : list N) (i x : N) : trap (list N) :=
  if i <? vec_len v then Val (firstn (N.to_nat i) v ++ x :: skipn (S (N.to_nat i)) v) else Trap.

(** for _ in 0..n { body } over the loop-carried state *)
Fixpoint iter_p {S} (n : nat) (body : S -> trap S) (s : S) : trap S :=
  match n with
  | O => Val s
  | S k => s1 <- body s ;; iter_p k body s1
  end.
(** for x in v.iter() { body } *)
Fixpoint fold_p {S} (body : S -> N -> trap S) (v : list N) (s : S) : trap S :=
  match v with
  | [] => Val s
  | x :: r => s1 <- body s x ;; fold_p body r s1
  end.

Fixpoint iter_l {S} (n : nat) (f : S -> S) (s : S) : S :=
  match n with O => s | S k => iter_l k f (f s) end.

Lemma iter_p_ext {S} (body : S -> trap S) (f : S -> S) n :
  (forall s, body s = Val (f s)) -> forall s, iter_p n body s = Val (iter_l n f s).
Proof.
  intros H. induction n as [|n IH]; intros s; cbn [iter_p iter_l]; [reflexivity|].
  rewrite H. cbn [bindT]. apply IH.
Qed.

Lemma fold_p_ext {S} (body : S -> N -> trap S) (f : S -> N -> S) v :
  (forall s x, body s x = Val (f s x)) -> forall s, fold_p body v s = Val (fold_left f v s).
Proof.
  intros H. induction v as [|x v IH]; intros s; cbn [fold_p fold_left]; [reflexivity|].
  rewrite H. cbn [bindT]. apply IH.
Qed.

Lemma iter_p_val {S} (f : S -> S) n (s : S) :
  iter_p n (fun x => Val (f x)) s = Val (iter_l n f s).
Proof. exact (iter_p_ext _ f n (fun _ => eq_refl) s). Qed.

Lemma fold_p_val {S} (f : S -> N -> S) v (s : S) :
  fold_p (fun x y => Val (f x y)) v s = Val (fold_left f v s).
Proof. exact (fold_p_ext _ f v (fun _ _ => eq_refl) s). Qed.

(** * Result<T, ValidationError>, with the error reduced to its policy tag

    Of a [ValidationError] only the tag is kept (the message and the kind do not enter the decision);
    a function body is a computation in [trap (result A)]: a panic, an early return of [Err], or a
    value.  Gen/PaymentsGen.v instead renders [Result<(), _>] as [bool]. *)
From Coq Require Import String.
From Coq Require Import List.          (* [length] means the list function again *)

Inductive result (A : Type) := OkR (a : A) | ErrR (tag : string).
Arguments OkR {A} a.
Arguments ErrR {A} tag.

(** [e?] : continue with the value of [Ok], leave the function with the error of [Err] *)
Definition bindR {A B} (x : trap (result A)) (f : A -> trap (result B)) : trap (result B) :=
  match x with
  | Trap => Trap
  | Val (ErrR t) => Val (ErrR t)
  | Val (OkR a) => f a
  end.
Notation "x <-? e ;; k" := (bindR e (fun x => k)) (at level 61, e at next level, right associativity).

(** [policy_err!(self, tag, ..)] = [self.policy().policy_error(tag, msg)?] : the policy filter
    decides; a tag it downgrades to a warning lets execution continue *)
Definition policy_err (warn : string -> bool) (tag : string) : trap (result unit) :=
  if warn tag then Val (OkR tt) else Val (ErrR tag).

(** [opt.ok_or_else(|| policy_error(tag, ..))] : the error is built without asking the filter *)
Definition ok_or {A} (o : option A) (tag : string) : trap (result A) :=
  match o with Some a => Val (OkR a) | None => Val (ErrR tag) end.

(** [for x in &v { body }] over the loop-carried state, for a body that may leave the function
    with an error ([?], [policy_err!]): the first error ends the loop and is the function's answer *)
Fixpoint fold_r {S A} (body : S -> A -> trap (result S)) (v : list A) (s : S) : trap (result S) :=
  match v with
  | [] => Val (OkR s)
  | x :: r => s1 <-? body s x ;; fold_r body r s1
  end.

(** [v.len()] of a Vec of any element type *)
Definition len_of {A} (v : list A) : N := N.of_nat (length v).

(** [==] on opaque values (keys, points, commitment contents: identities; their PartialEq is
    structural, so two values are equal iff they are the same identity) and on [Option]s of them *)
Definition opt_id_eqb (a b : option N) : bool :=
  match a, b with
  | Some x, Some y => x =? y
  | None, None => true
  | _, _ => false
  end.

(** [opt.unwrap()] / [opt.expect(..)]: panics on [None] *)
Definition expect_some {A} (o : option A) : trap A :=
  match o with Some a => Val a | None => Trap end.

(** [return Err(e)] from anywhere in the body (also through a macro such as
    transaction_format_err!): the rest of the function is not run - in the result monad the same
    as [Err(e)?] *)
Definition early_err (tag : string) : trap (result unit) := Val (ErrR tag).

(** [v.get(i)] : [None] when out of range *)
Definition vec_nth {A} (v : list A) (i : N) : option A := nth_error v (N.to_nat i).

(** [v.contains(&x)] on a vector of integers *)
Definition vec_contains (v : list N) (x : N) : bool := existsb (N.eqb x) v.

(** [opt.is_none()], [opt.is_some()], [v.is_empty()] *)
Definition is_none_of {A} (o : option A) : bool := match o with None => true | Some _ => false end.
Definition is_some_of {A} (o : option A) : bool := match o with None => false | Some _ => true end.
Definition is_empty_of {A} (v : list A) : bool := match v with [] => true | _ => false end.

(** * Maps and sets with opaque or integer keys

    [Map<K, V>] / [OrderedMap<K, V>] (hashbrown::HashMap, BTreeMap) are association lists with at
    most one entry per key ([N] for the key: an identity or an integer); [UnorderedSet<K>] /
    [OrderedSet<K>] are lists without repetition.  The position of an entry in the list carries no
    meaning: whenever a translated function *iterates* ([for x in m.iter()], [.keys()], [.values()]
    in a loop), the elements are visited in the order [ord l] for an uninterpreted [ord] that the
    theorems only know to be a permutation - for a hash map the real order is arbitrary, and for an
    ordered map over opaque keys the key order is not expressible.  [iter().sum()] of u64 values does
    not go through [ord]: its outcome (value, wrap, or overflow panic) is the same for every order
    (Proofs/RustFacts.v, [sum_p_perm]). *)
Definition rmap (V : Type) : Type := list (N * V).

Fixpoint map_get {V} (m : rmap V) (k : N) : option V :=
  match m with
  | [] => None
  | (k', v) :: r => if k' =? k then Some v else map_get r k
  end.
Definition map_contains {V} (m : rmap V) (k : N) : bool := is_some_of (map_get m k).
Definition map_remove {V} (m : rmap V) (k : N) : rmap V := filter (fun e => negb (fst e =? k)) m.
(** [m.insert(k, v)]: the entry for [k] is replaced or added *)
Definition map_insert {V} (m : rmap V) (k : N) (v : V) : rmap V := (k, v) :: map_remove m k.
Definition map_keys {V} (m : rmap V) : list N := map fst m.
Definition map_values {V} (m : rmap V) : list V := map snd m.

Definition set_contains (s : list N) (k : N) : bool := existsb (N.eqb k) s.
Definition set_insert (s : list N) (k : N) : list N := if set_contains s k then s else s ++ [k].
(** [s.extend(iterator)]: every element is inserted *)
Definition set_extend (s : list N) (l : list N) : list N := fold_left set_insert l s.

(** [iter.sum::<u64>()]: [+] from 0, overflow as for [+] *)
Fixpoint sum_from (p : profile) (l : list N) (acc : N) : trap N :=
  match l with
  | [] => Val acc
  | x :: r => s <- add_p p acc x ;; sum_from p r s
  end.
Definition sum_p (p : profile) (l : list N) : trap N := sum_from p l 0.

(** [opt.map(|x| f x)] is [option_map]; [v.push(x)] appends *)
Definition vec_push {A} (v : list A) (x : A) : list A := v ++ [x].

(** pattern binder for [bindR] (several loop-carried variables) *)
Notation "' p <-? e ;; k" := (bindR e (fun p => k)) (at level 61, p pattern, e at next level, right associativity).

(** [iter.min()] / [iter.max()] over u32 / u64 values: [None] for an empty iterator *)
Definition min_of (l : list N) : option N :=
  match l with [] => None | x :: r => Some (fold_left N.min r x) end.
Definition max_of (l : list N) : option N :=
  match l with [] => None | x :: r => Some (fold_left N.max r x) end.

(** [m.entry(k).and_modify(|e| *e = f e).or_insert(d)] on a map: the entry is updated when it
    exists (the update may panic: [*e += x]), inserted with [d] when it does not and there is an
    [or_insert]; without [or_insert] a missing key changes nothing *)
Definition map_entry_update {V} (m : rmap V) (k : N) (f : V -> trap V) (d : option V) : trap (rmap V) :=
  match map_get m k with
  | Some e => v <- f e ;; Val (map_insert m k v)
  | None => match d with Some v => Val (map_insert m k v) | None => Val m end
  end.

(** [m.retain(|k, _| keep k)] *)
Definition map_retain {V} (m : rmap V) (keep : N -> bool) : rmap V := filter (fun e => keep (fst e)) m.

(** [a.or(b)] on options *)
Definition opt_or_else {A} (a b : option A) : option A := match a with Some _ => a | None => b end.

(** [m.retain(|k, v| { ..; keep })] with a closure that assigns captured variables (the state [S] handed from
    entry to entry) and may panic: the entries are visited in the order of the association list, which stands for
    the unspecified order of the hash map (a theorem about every list that represents the map is a theorem about
    every visiting order) *)
Fixpoint map_retain_st {V S} (m : rmap V) (f : S -> N -> V -> trap (result (S * bool))) (s : S)
  : trap (result (rmap V * S)) :=
  match m with
  | [] => Val (OkR ([], s))
  | (k, v) :: r =>
      ' (s1, keep) <-? f s k v ;;
      ' (r', s2) <-? map_retain_st r f s1 ;;
      Val (OkR (if keep : bool then (k, v) :: r' else r', s2))
  end.

(** * BTreeMap<String, V> and Vec<u8> (vls-persist/src/kvv)
    A string is the list of its UTF-8 bytes; [Ord for str] is the lexicographic order of the bytes; the map is the list
    of its entries in ascending key order (what [iter] / [range] of the BTreeMap walk through). *)
Fixpoint bytes_cmp (a b : list N) : comparison :=
  match a, b with
  | [], [] => Eq
  | [], _ :: _ => Lt
  | _ :: _, [] => Gt
  | x :: a', y :: b' => match N.compare x y with Eq => bytes_cmp a' b' | c => c end
  end.
(** [==] on Vec<u8> *)
Fixpoint bytes_eqb (a b : list N) : bool :=
  match a, b with
  | [], [] => true
  | x :: a', y :: b' => (x =? y) && bytes_eqb a' b'
  | _, _ => false
  end.
Definition bmap (V : Type) := list (list N * V).
Fixpoint bmap_get {V} (m : bmap V) (k : list N) : option V :=
  match m with
  | [] => None
  | (k', v) :: r => match bytes_cmp k k' with Eq => Some v | _ => bmap_get r k end
  end.
(** [m.insert(k, v)]: the entry for [k] is replaced, or added at its place in the order *)
Fixpoint bmap_insert {V} (m : bmap V) (k : list N) (v : V) : bmap V :=
  match m with
  | [] => [(k, v)]
  | (k', v') :: r =>
      match bytes_cmp k k' with
      | Eq => (k, v) :: r
      | Lt => (k, v) :: (k', v') :: r
      | Gt => (k', v') :: bmap_insert r k v
      end
  end.
