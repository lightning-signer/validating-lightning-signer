(** Wire codec combinators for the signer protocol (C19), proved once.

    Bytes are [N] (a wire byte is < 256; nothing below needs that bound except the integer
    codecs, which state it).  A decoder is a function [bytes -> option (A * bytes)] returning
    the value and the unread rest; [roundtrip enc dec wf] says that decoding what was encoded,
    followed by anything, yields the value and exactly that rest.

    Semantics transcribed from
      - bitcoin-consensus-derive 0.2.1 (struct fields in declaration order; numeric fields
        big-endian; [Option] = bool marker + value; [[u8; n]] = n raw bytes),
      - serde_bolt 0.5.1 types.rs ([Octets] u16 length, [Array]/[ArrayBE] u16 count (the
        count is written with [as u16], i.e. truncated), [LargeOctets] u32 length,
        [WireString] NUL-terminated, [WithSize] u32 length + exact consumption, both with
        the MAX_VEC_SIZE = 4_000_000 guard on decode),
      - rust-bitcoin 0.32 consensus encoding for the embedded bitcoin types (bool = one
        byte, any non-zero byte decodes as true; integers little-endian; hashes raw).
    The harness domain [wire] compares these functions with the real crates on every run. *)
From Coq Require Import String Ascii.
From Coq Require Import List Arith NArith Lia Bool.
Import ListNotations.
Open Scope N_scope.

Definition bytes := list N.
Definition dec_t (A : Type) := bytes -> option (A * bytes).

Definition roundtrip {A} (enc : A -> bytes) (dec : dec_t A) (wf : A -> bool) : Prop :=
  forall x rest, wf x = true -> dec (enc x ++ rest) = Some (x, rest).

Definition bind {A B} (o : option A) (f : A -> option B) : option B :=
  match o with Some a => f a | None => None end.

Definition lenN {A} (l : list A) : N := N.of_nat (length l).

Fixpoint take (n : nat) (bs : bytes) : option (bytes * bytes) :=
  match n with
  | O => Some ([], bs)
  | S k => match bs with
           | [] => None
           | b :: r => match take k r with Some (h, t) => Some (b :: h, t) | None => None end
           end
  end.

Lemma take_app (a rest : bytes) n : length a = n -> take n (a ++ rest) = Some (a, rest).
Proof.
  intros <-. induction a as [|b a IH]; [reflexivity|].
  cbn [length app take]. rewrite IH. reflexivity.
Qed.

Fixpoint le_enc (n : nat) (v : N) : bytes :=
  match n with O => [] | S k => v mod 256 :: le_enc k (v / 256) end.
Fixpoint le_val (bs : bytes) : N :=
  match bs with [] => 0 | b :: r => b + 256 * le_val r end.

Lemma le_enc_length n : forall v, length (le_enc n v) = n.
Proof. induction n; intros v; cbn [le_enc length]; [reflexivity|]. rewrite IHn. reflexivity. Qed.

Lemma le_val_enc_mod n : forall v, le_val (le_enc n v) = v mod 256 ^ N.of_nat n.
Proof.
  induction n as [|n IH]; intros v; cbn [le_enc le_val].
  - change (N.of_nat 0) with 0. rewrite N.pow_0_r, N.mod_1_r. reflexivity.
  - rewrite IH, Nat2N.inj_succ, N.pow_succ_r'. symmetry.
    apply N.mod_mul_r; [discriminate | apply N.pow_nonzero; discriminate].
Qed.

Lemma le_val_enc n v : v < 256 ^ N.of_nat n -> le_val (le_enc n v) = v.
Proof. intros Hv. rewrite le_val_enc_mod. apply N.mod_small, Hv. Qed.

Definition be_enc (n : nat) (v : N) : bytes := rev (le_enc n v).
Definition be_val (bs : bytes) : N := le_val (rev bs).

Definition dec_be (n : nat) : dec_t N :=
  fun bs => match take n bs with Some (h, r) => Some (be_val h, r) | None => None end.
Definition dec_le (n : nat) : dec_t N :=
  fun bs => match take n bs with Some (h, r) => Some (le_val h, r) | None => None end.

Definition fits (n : nat) (v : N) : bool := v <? 256 ^ N.of_nat n.

Lemma be_enc_length n v : length (be_enc n v) = n.
Proof. unfold be_enc. rewrite rev_length. apply le_enc_length. Qed.

Lemma be_roundtrip n : roundtrip (be_enc n) (dec_be n) (fits n).
Proof.
  intros v rest Hv. unfold dec_be. rewrite take_app by apply be_enc_length.
  unfold be_val, be_enc. rewrite rev_involutive, le_val_enc; [reflexivity|].
  apply N.ltb_lt. exact Hv.
Qed.

Lemma le_roundtrip n : roundtrip (le_enc n) (dec_le n) (fits n).
Proof.
  intros v rest Hv. unfold dec_le. rewrite take_app by apply le_enc_length.
  rewrite le_val_enc; [reflexivity|]. apply N.ltb_lt. exact Hv.
Qed.

(** big-endian fields of the derive *)
Definition enc_u8 := be_enc 1.  Definition dec_u8 := dec_be 1.  Definition wf_u8 := fits 1.
Definition enc_u16 := be_enc 2. Definition dec_u16 := dec_be 2. Definition wf_u16 := fits 2.
Definition enc_u32 := be_enc 4. Definition dec_u32 := dec_be 4. Definition wf_u32 := fits 4.
Definition enc_u64 := be_enc 8. Definition dec_u64 := dec_be 8. Definition wf_u64 := fits 8.
(** rust-bitcoin's own (little-endian) integers, used inside embedded bitcoin types *)
Definition enc_u16le := le_enc 2. Definition dec_u16le := dec_le 2.
Definition enc_u32le := le_enc 4. Definition dec_u32le := dec_le 4.
Definition enc_u64le := le_enc 8. Definition dec_u64le := dec_le 8.

Lemma rt_u8 : roundtrip enc_u8 dec_u8 wf_u8.   Proof. apply be_roundtrip. Qed.
Lemma rt_u16 : roundtrip enc_u16 dec_u16 wf_u16. Proof. apply be_roundtrip. Qed.
Lemma rt_u32 : roundtrip enc_u32 dec_u32 wf_u32. Proof. apply be_roundtrip. Qed.
Lemma rt_u64 : roundtrip enc_u64 dec_u64 wf_u64. Proof. apply be_roundtrip. Qed.
Lemma rt_u16le : roundtrip enc_u16le dec_u16le wf_u16. Proof. apply le_roundtrip. Qed.
Lemma rt_u32le : roundtrip enc_u32le dec_u32le wf_u32. Proof. apply le_roundtrip. Qed.
Lemma rt_u64le : roundtrip enc_u64le dec_u64le wf_u64. Proof. apply le_roundtrip. Qed.

(** ** bool: one byte; any non-zero byte reads as true *)
Definition enc_bool (b : bool) : bytes := [if b then 1 else 0].
Definition dec_bool : dec_t bool :=
  fun bs => match bs with [] => None | b :: r => Some (negb (b =? 0), r) end.
Definition wf_bool (_ : bool) : bool := true.
Lemma rt_bool : roundtrip enc_bool dec_bool wf_bool.
Proof. intros [|] rest _; reflexivity. Qed.

(** ** fixed-size byte arrays ([u8; n], hashes, keys, signatures, block headers) *)
Definition enc_fixed (n : nat) (l : bytes) : bytes := l.
Definition dec_fixed (n : nat) : dec_t bytes := take n.
Definition wf_fixed (n : nat) (l : bytes) : bool := Nat.eqb (length l) n.
Lemma rt_fixed n : roundtrip (enc_fixed n) (dec_fixed n) (wf_fixed n).
Proof. intros l rest H. apply take_app. apply Nat.eqb_eq. exact H. Qed.

(** ** Option: marker + value *)
Definition enc_option {A} (enc : A -> bytes) (o : option A) : bytes :=
  match o with None => enc_bool false | Some x => enc_bool true ++ enc x end.
Definition dec_option {A} (dec : dec_t A) : dec_t (option A) :=
  fun bs => bind (dec_bool bs) (fun '(b, r) =>
    if b then bind (dec r) (fun '(x, r') => Some (Some x, r')) else Some (None, r)).
Definition wf_option {A} (wf : A -> bool) (o : option A) : bool :=
  match o with None => true | Some x => wf x end.
Lemma rt_option {A} (enc : A -> bytes) dec wf :
  roundtrip enc dec wf -> roundtrip (enc_option enc) (dec_option dec) (wf_option wf).
Proof.
  intros H [x|] rest Hw; unfold dec_option; cbn [enc_option enc_bool app dec_bool bind N.eqb negb].
  - rewrite (H x rest Hw). reflexivity.
  - reflexivity.
Qed.

(** ** Octets (u16 length) and LargeOctets (u32 length, decode refuses > MAX_VEC_SIZE) *)
Definition MAX_VEC_SIZE : N := 4000000.

Definition enc_octets (l : bytes) : bytes := enc_u16 (lenN l) ++ l.
Definition dec_octets : dec_t bytes :=
  fun bs => bind (dec_u16 bs) (fun '(n, r) => take (N.to_nat n) r).
Definition wf_octets (l : bytes) : bool := lenN l <? 65536.
Lemma rt_octets : roundtrip enc_octets dec_octets wf_octets.
Proof.
  intros l rest H. unfold enc_octets, dec_octets. rewrite <- app_assoc.
  rewrite rt_u16 by exact H. cbn [bind]. apply take_app. unfold lenN. lia.
Qed.

Definition enc_largeoctets (l : bytes) : bytes := enc_u32 (lenN l) ++ l.
Definition dec_largeoctets : dec_t bytes :=
  fun bs => bind (dec_u32 bs) (fun '(n, r) =>
    if MAX_VEC_SIZE <? n then None else take (N.to_nat n) r).
Definition wf_largeoctets (l : bytes) : bool := lenN l <=? MAX_VEC_SIZE.
Lemma fits4_of_le_max n : n <= MAX_VEC_SIZE -> fits 4 n = true.
Proof. intros H. apply N.ltb_lt. unfold MAX_VEC_SIZE in H. cbn. lia. Qed.
Lemma rt_largeoctets : roundtrip enc_largeoctets dec_largeoctets wf_largeoctets.
Proof.
  intros l rest H. apply N.leb_le in H. unfold enc_largeoctets, dec_largeoctets.
  rewrite <- app_assoc. rewrite rt_u32 by (apply fits4_of_le_max; exact H). cbn [bind].
  destruct (N.ltb_spec MAX_VEC_SIZE (lenN l)) as [C|_]; [lia|].
  apply take_app. unfold lenN. lia.
Qed.

(** ** WireString: bytes up to a terminating NUL; cannot contain NUL *)
Definition enc_wirestring (l : bytes) : bytes := l ++ [0].
Fixpoint dec_wirestring (bs : bytes) : option (bytes * bytes) :=
  match bs with
  | [] => None
  | b :: r => if b =? 0 then Some ([], r)
              else match dec_wirestring r with Some (s, r') => Some (b :: s, r') | None => None end
  end.
Definition wf_wirestring (l : bytes) : bool := forallb (fun b => negb (b =? 0)) l.
Lemma rt_wirestring : roundtrip enc_wirestring dec_wirestring wf_wirestring.
Proof.
  intros l rest. unfold enc_wirestring. induction l as [|b l IH]; intros H.
  - reflexivity.
  - cbn [wf_wirestring forallb] in H. apply andb_true_iff in H. destruct H as [Hb Hl].
    cbn [app dec_wirestring]. destruct (b =? 0); [discriminate|].
    unfold wf_wirestring in IH. rewrite (IH Hl). reflexivity.
Qed.

(** ** Array / ArrayBE: u16 count (written truncated), then the elements *)
Fixpoint dec_n {A} (dec : dec_t A) (n : nat) (bs : bytes) : option (list A * bytes) :=
  match n with
  | O => Some ([], bs)
  | S k => match dec bs with
           | Some (x, r) => match dec_n dec k r with
                            | Some (l, r') => Some (x :: l, r')
                            | None => None
                            end
           | None => None
           end
  end.
Definition enc_seq {A} (enc : A -> bytes) (l : list A) : bytes := concat (map enc l).
Definition enc_array {A} (enc : A -> bytes) (l : list A) : bytes :=
  enc_u16 (lenN l mod 65536) ++ enc_seq enc l.
Definition dec_array {A} (dec : dec_t A) : dec_t (list A) :=
  fun bs => bind (dec_u16 bs) (fun '(n, r) => dec_n dec (N.to_nat n) r).
Definition wf_array {A} (wf : A -> bool) (l : list A) : bool :=
  (lenN l <? 65536) && forallb wf l.

Lemma rt_seq {A} (enc : A -> bytes) dec wf : roundtrip enc dec wf ->
  forall l rest, forallb wf l = true -> dec_n dec (length l) (enc_seq enc l ++ rest) = Some (l, rest).
Proof.
  intros H. induction l as [|x l IH]; intros rest Hl.
  - reflexivity.
  - cbn [forallb] in Hl. apply andb_true_iff in Hl. destruct Hl as [Hx Hl].
    unfold enc_seq. cbn [map concat length dec_n]. rewrite <- app_assoc.
    rewrite (H x _ Hx). fold (enc_seq enc l). rewrite (IH rest Hl). reflexivity.
Qed.

Lemma rt_array {A} (enc : A -> bytes) dec wf :
  roundtrip enc dec wf -> roundtrip (enc_array enc) (dec_array dec) (wf_array wf).
Proof.
  intros H l rest Hw. unfold wf_array in Hw. apply andb_true_iff in Hw. destruct Hw as [Hn Hl].
  pose proof Hn as Hn'. apply N.ltb_lt in Hn'.
  unfold enc_array, dec_array. rewrite N.mod_small by exact Hn'. rewrite <- app_assoc.
  rewrite rt_u16 by exact Hn. cbn [bind]. unfold lenN. rewrite Nat2N.id.
  apply (rt_seq enc dec wf H). exact Hl.
Qed.

(** ** WithSize: u32 length, then a window of exactly that many bytes that the inner parser
       must consume completely.  [parse] sees the window only. *)
Definition exact {A} (dec : dec_t A) (w : bytes) : option A :=
  match dec w with Some (x, []) => Some x | _ => None end.
Lemma exact_of_roundtrip {A} (enc : A -> bytes) dec wf :
  roundtrip enc dec wf -> forall x, wf x = true -> exact dec (enc x) = Some x.
Proof.
  intros H x Hx. unfold exact. rewrite <- (app_nil_r (enc x)). rewrite (H x [] Hx). reflexivity.
Qed.

Definition enc_withsize {A} (ser : A -> bytes) (x : A) : bytes :=
  enc_u32 (lenN (ser x)) ++ ser x.
Definition dec_withsize {A} (parse : bytes -> option A) : dec_t A :=
  fun bs => bind (dec_u32 bs) (fun '(n, r) =>
    if MAX_VEC_SIZE <? n then None
    else bind (take (N.to_nat n) r) (fun '(w, r') => bind (parse w) (fun x => Some (x, r')))).
Definition wf_withsize {A} (ser : A -> bytes) (wf : A -> bool) (x : A) : bool :=
  (lenN (ser x) <=? MAX_VEC_SIZE) && wf x.
Lemma rt_withsize {A} (ser : A -> bytes) parse wf :
  (forall x, wf x = true -> parse (ser x) = Some x) ->
  roundtrip (enc_withsize ser) (dec_withsize parse) (wf_withsize ser wf).
Proof.
  intros H x rest Hw. unfold wf_withsize in Hw. apply andb_true_iff in Hw. destruct Hw as [Hn Hx].
  apply N.leb_le in Hn. unfold enc_withsize, dec_withsize. rewrite <- app_assoc.
  rewrite rt_u32 by (apply fits4_of_le_max; exact Hn). cbn [bind].
  destruct (N.ltb_spec MAX_VEC_SIZE (lenN (ser x))) as [C|_]; [lia|].
  rewrite take_app by (unfold lenN; lia). cbn [bind]. rewrite (H x Hx). reflexivity.
Qed.

Lemma rt_field {A} (enc : A -> bytes) dec wf (H : roundtrip enc dec wf) x tail rest :
  wf x = true -> dec ((enc x ++ tail) ++ rest) = Some (x, tail ++ rest).
Proof. intros Hx. rewrite <- app_assoc. apply H. exact Hx. Qed.

(** ** compact byte-string literals for generated case files: [hx "00ff10"] *)
Definition hexval (c : ascii) : N :=
  let n := N_of_ascii c in
  if (48 <=? n) && (n <=? 57) then n - 48
  else if (97 <=? n) && (n <=? 102) then n - 87
  else if (65 <=? n) && (n <=? 70) then n - 55 else 0.
Fixpoint hx (s : string) : bytes :=
  match s with
  | String a (String b r) => (16 * hexval a + hexval b) :: hx r
  | _ => []
  end.
Arguments hx _%string_scope.
Definition rep (n : N) (b : N) : bytes := repeat b (N.to_nat n).
Definition repl {A} (n : N) (x : A) : list A := repeat x (N.to_nat n).

Fixpoint bytes_eqb (a b : bytes) : bool :=
  match a, b with
  | [], [] => true
  | x :: a', y :: b' => (x =? y) && bytes_eqb a' b'
  | _, _ => false
  end.
Lemma bytes_eqb_eq a : forall b, bytes_eqb a b = true <-> a = b.
Proof.
  induction a as [|x a IH]; intros [|y b]; cbn [bytes_eqb]; try (split; [discriminate|congruence]).
  - split; reflexivity.
  - rewrite andb_true_iff, N.eqb_eq, IH. split; [intros [-> ->]; reflexivity|].
    intros E. inversion E. split; reflexivity.
Qed.

(** ** from the size of an encoding to well-formedness
    [typed]: what every Rust value satisfies or [as_vec] panics on (integer ranges, fixed
    lengths, Octets < 2^16, NUL-free strings, consistent streamed PSBTs); [wf] additionally
    bounds array counts and blob sizes.  Those follow from the encoding fitting [bound]
    whenever an array's elements are at least [k] bytes with [bound < k * 2^16]. *)
Definition size_wf {A} (enc : A -> bytes) (typed wf : A -> bool) (bound : N) : Prop :=
  forall x, typed x = true -> lenN (enc x) <= bound -> wf x = true.
Definition min_size {A} (enc : A -> bytes) (typed : A -> bool) (k : N) : Prop :=
  forall x, typed x = true -> k <= lenN (enc x).

Lemma lenN_app {A} (a b : list A) : lenN (a ++ b) = lenN a + lenN b.
Proof. unfold lenN. rewrite app_length. lia. Qed.
Lemma lenN_cons {A} (a : A) b : lenN (a :: b) = 1 + lenN b.
Proof. unfold lenN. cbn [length]. lia. Qed.
Lemma lenN_be n v : lenN (be_enc n v) = N.of_nat n.
Proof. unfold lenN. rewrite be_enc_length. reflexivity. Qed.
Lemma lenN_le n v : lenN (le_enc n v) = N.of_nat n.
Proof. unfold lenN. rewrite le_enc_length. reflexivity. Qed.

Lemma sw_same {A} (enc : A -> bytes) (wf : A -> bool) bound : size_wf enc wf wf bound.
Proof. intros x H _. exact H. Qed.
Lemma ms_zero {A} (enc : A -> bytes) (ty : A -> bool) : min_size enc ty 0.
Proof. intros x _. lia. Qed.
Lemma ms_be n : min_size (be_enc n) (fits n) (N.of_nat n).
Proof. intros v _. rewrite lenN_be. lia. Qed.
Lemma ms_le n : min_size (le_enc n) (fits n) (N.of_nat n).
Proof. intros v _. rewrite lenN_le. lia. Qed.
Lemma ms_bool : min_size enc_bool wf_bool 1.
Proof. intros b _. unfold enc_bool. rewrite lenN_cons. lia. Qed.
Lemma ms_fixed n : min_size (enc_fixed n) (wf_fixed n) (N.of_nat n).
Proof. intros l H. apply Nat.eqb_eq in H. unfold enc_fixed, lenN. rewrite H. lia. Qed.
Lemma ms_option {A} (enc : A -> bytes) ty : min_size (enc_option enc) (wf_option ty) 1.
Proof. intros [x|] _; cbn [enc_option]; unfold enc_bool; cbn [app]; rewrite lenN_cons; lia. Qed.
Lemma ms_octets : min_size enc_octets wf_octets 2.
Proof. intros l _. unfold enc_octets, enc_u16. rewrite lenN_app, lenN_be. lia. Qed.
Lemma ms_largeoctets ty : min_size enc_largeoctets ty 4.
Proof. intros l _. unfold enc_largeoctets, enc_u32. rewrite lenN_app, lenN_be. lia. Qed.
Lemma ms_wirestring : min_size enc_wirestring wf_wirestring 1.
Proof. intros l _. unfold enc_wirestring. rewrite lenN_app, lenN_cons. lia. Qed.
Lemma ms_array {A} (enc : A -> bytes) ty : min_size (enc_array enc) ty 2.
Proof. intros l _. unfold enc_array, enc_u16. rewrite lenN_app, lenN_be. lia. Qed.
Lemma ms_withsize {A} (ser : A -> bytes) ty : min_size (enc_withsize ser) ty 4.
Proof. intros x _. unfold enc_withsize, enc_u32. rewrite lenN_app, lenN_be. lia. Qed.

Lemma sw_option {A} (enc : A -> bytes) ty wf bound :
  size_wf enc ty wf bound -> size_wf (enc_option enc) (wf_option ty) (wf_option wf) bound.
Proof.
  intros H [x|] Ht Hs; [|reflexivity]. cbn [wf_option] in *. apply H; [exact Ht|].
  cbn [enc_option] in Hs. rewrite lenN_app in Hs. lia.
Qed.

Lemma sw_largeoctets bound : (bound <=? MAX_VEC_SIZE) = true ->
  size_wf enc_largeoctets (fun _ => true) wf_largeoctets bound.
Proof.
  intros Hb l _ Hs. apply N.leb_le in Hb. unfold wf_largeoctets. apply N.leb_le.
  unfold enc_largeoctets in Hs. rewrite lenN_app in Hs. lia.
Qed.

Lemma sw_withsize {A} (ser : A -> bytes) ty wf bound :
  size_wf ser ty wf bound -> (bound <=? MAX_VEC_SIZE) = true ->
  size_wf (enc_withsize ser) ty (wf_withsize ser wf) bound.
Proof.
  intros H Hb x Ht Hs. apply N.leb_le in Hb. unfold enc_withsize in Hs. rewrite lenN_app in Hs.
  unfold wf_withsize. apply andb_true_intro. split; [apply N.leb_le; lia|].
  apply H; [exact Ht|lia].
Qed.

Lemma enc_seq_ge {A} (enc : A -> bytes) ty k : min_size enc ty k ->
  forall l, forallb ty l = true -> k * lenN l <= lenN (enc_seq enc l).
Proof.
  intros H. induction l as [|x l IH]; intros Hl.
  - cbn. lia.
  - cbn [forallb] in Hl. apply andb_true_iff in Hl. destruct Hl as [Hx Hl].
    unfold enc_seq. cbn [map concat]. fold (enc_seq enc l). rewrite lenN_app, lenN_cons.
    pose proof (H x Hx). pose proof (IH Hl). lia.
Qed.
Lemma enc_seq_elem {A} (enc : A -> bytes) l x : In x l -> lenN (enc x) <= lenN (enc_seq enc l).
Proof.
  induction l as [|y l IH]; intros Hin; [destruct Hin|].
  unfold enc_seq. cbn [map concat]. fold (enc_seq enc l). rewrite lenN_app.
  destruct Hin as [->|Hin]; [lia|]. pose proof (IH Hin). lia.
Qed.
Lemma sw_elems {A} (enc : A -> bytes) ty wf bound : size_wf enc ty wf bound ->
  forall l, forallb ty l = true -> lenN (enc_seq enc l) <= bound -> forallb wf l = true.
Proof.
  intros H l Ht Hs. apply forallb_forall. intros x Hin. apply H.
  - rewrite forallb_forall in Ht. apply Ht. exact Hin.
  - pose proof (enc_seq_elem enc l x Hin). lia.
Qed.

(** the count bound of an array follows from the size bound when elements are big enough *)
Lemma sw_array {A} (enc : A -> bytes) ty wf bound k :
  size_wf enc ty wf bound -> min_size enc ty k -> (bound <? k * 65536) = true ->
  size_wf (enc_array enc) (forallb ty) (wf_array wf) bound.
Proof.
  intros H Hk Hb l Ht Hs. apply N.ltb_lt in Hb. unfold enc_array in Hs. rewrite lenN_app in Hs.
  unfold wf_array. apply andb_true_intro. split.
  - apply N.ltb_lt. pose proof (enc_seq_ge enc ty k Hk l Ht).
    assert (0 < k) by (destruct k; [cbn in Hb; lia|lia]).
    apply (N.mul_lt_mono_pos_l k); [assumption|]. lia.
  - apply (sw_elems enc ty wf bound H l Ht). lia.
Qed.

(** ... otherwise (elements may be 1 or 2 bytes) the count bound stays a hypothesis *)
Lemma sw_array_counted {A} (enc : A -> bytes) ty wf bound :
  size_wf enc ty wf bound -> size_wf (enc_array enc) (wf_array ty) (wf_array wf) bound.
Proof.
  intros H l Ht Hs. unfold wf_array in *. apply andb_true_iff in Ht. destruct Ht as [Hn Ht].
  rewrite Hn. cbn [andb]. unfold enc_array in Hs. rewrite lenN_app in Hs.
  apply (sw_elems enc ty wf bound H l Ht). lia.
Qed.
