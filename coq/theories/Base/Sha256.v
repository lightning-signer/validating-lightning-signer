(** SHA-256 (FIPS 180-4), HMAC-SHA256 (RFC 2104) and HKDF-SHA256 (RFC 5869) as executable
    Gallina functions over byte lists ([list N], every element < 256), so that models which
    hash (per-commitment secret tree, HKDF key derivation) run under [vm_compute] without an
    oracle.  Validated at the end of the file against the standard test vectors. *)
From Coq Require Import Ascii String NArith List Bool.
Import ListNotations.
Open Scope bool_scope.
Open Scope N_scope.

Definition bytes := list N.

Definition mask32 : N := 4294967295.
Definition add32 (a b : N) : N := N.land (a + b) mask32.
Definition rotr (n x : N) : N := N.lor (N.shiftr x n) (N.land (N.shiftl x (32 - n)) mask32).
Definition shr (n x : N) : N := N.shiftr x n.
Definition not32 (x : N) : N := N.lxor x mask32.

Definition Ch (x y z : N) : N := N.lxor (N.land x y) (N.land (not32 x) z).
Definition Maj (x y z : N) : N := N.lxor (N.lxor (N.land x y) (N.land x z)) (N.land y z).
Definition bsig0 (x : N) : N := N.lxor (N.lxor (rotr 2 x) (rotr 13 x)) (rotr 22 x).
Definition bsig1 (x : N) : N := N.lxor (N.lxor (rotr 6 x) (rotr 11 x)) (rotr 25 x).
Definition ssig0 (x : N) : N := N.lxor (N.lxor (rotr 7 x) (rotr 18 x)) (shr 3 x).
Definition ssig1 (x : N) : N := N.lxor (N.lxor (rotr 17 x) (rotr 19 x)) (shr 10 x).

Definition K256 : list N := [
  0x428a2f98; 0x71374491; 0xb5c0fbcf; 0xe9b5dba5; 0x3956c25b; 0x59f111f1; 0x923f82a4; 0xab1c5ed5;
  0xd807aa98; 0x12835b01; 0x243185be; 0x550c7dc3; 0x72be5d74; 0x80deb1fe; 0x9bdc06a7; 0xc19bf174;
  0xe49b69c1; 0xefbe4786; 0x0fc19dc6; 0x240ca1cc; 0x2de92c6f; 0x4a7484aa; 0x5cb0a9dc; 0x76f988da;
  0x983e5152; 0xa831c66d; 0xb00327c8; 0xbf597fc7; 0xc6e00bf3; 0xd5a79147; 0x06ca6351; 0x14292967;
  0x27b70a85; 0x2e1b2138; 0x4d2c6dfc; 0x53380d13; 0x650a7354; 0x766a0abb; 0x81c2c92e; 0x92722c85;
  0xa2bfe8a1; 0xa81a664b; 0xc24b8b70; 0xc76c51a3; 0xd192e819; 0xd6990624; 0xf40e3585; 0x106aa070;
  0x19a4c116; 0x1e376c08; 0x2748774c; 0x34b0bcb5; 0x391c0cb3; 0x4ed8aa4a; 0x5b9cca4f; 0x682e6ff3;
  0x748f82ee; 0x78a5636f; 0x84c87814; 0x8cc70208; 0x90befffa; 0xa4506ceb; 0xbef9a3f7; 0xc67178f2].

Definition H0 : list N := [
  0x6a09e667; 0xbb67ae85; 0x3c6ef372; 0xa54ff53a; 0x510e527f; 0x9b05688c; 0x1f83d9ab; 0x5be0cd19].

(** big-endian bytes <-> 32-bit words *)
Fixpoint words_of (l : bytes) : list N :=
  match l with
  | a :: b :: c :: d :: r =>
      (N.shiftl a 24 + N.shiftl b 16 + N.shiftl c 8 + d) :: words_of r
  | _ => []
  end.
Definition bytes_of_word (w : N) : bytes :=
  [N.land (N.shiftr w 24) 255; N.land (N.shiftr w 16) 255; N.land (N.shiftr w 8) 255; N.land w 255].
Definition bytes_of_words (ws : list N) : bytes := flat_map bytes_of_word ws.

(** message schedule: [win] holds the last 16 words, most recent first *)
Fixpoint sched (n : nat) (win : list N) (acc : list N) : list N :=
  match n with
  | O => rev acc
  | S m =>
      let w := add32 (add32 (ssig1 (nth 1 win 0)) (nth 6 win 0))
                     (add32 (ssig0 (nth 14 win 0)) (nth 15 win 0)) in
      sched m (w :: firstn 15 win) (w :: acc)
  end.
Definition schedule (blk : list N) : list N := blk ++ sched 48 (rev blk) [].

Definition round (s : N * N * N * N * N * N * N * N) (kw : N * N) :=
  let '(a, b, c, d, e, f, g, h) := s in
  let '(k, w) := kw in
  let t1 := add32 (add32 (add32 h (bsig1 e)) (add32 (Ch e f g) k)) w in
  let t2 := add32 (bsig0 a) (Maj a b c) in
  (add32 t1 t2, a, b, c, add32 d t1, e, f, g).

Definition compress (hs : list N) (blk : list N) : list N :=
  match hs with
  | [a; b; c; d; e; f; g; h] =>
      let '(a', b', c', d', e', f', g', h') :=
        fold_left round (combine K256 (schedule blk)) (a, b, c, d, e, f, g, h) in
      [add32 a a'; add32 b b'; add32 c c'; add32 d d'; add32 e e'; add32 f f'; add32 g g'; add32 h h']
  | _ => hs
  end.

Fixpoint zeros (n : nat) : bytes := match n with O => [] | S m => 0 :: zeros m end.

Definition be64 (n : N) : bytes :=
  [N.land (N.shiftr n 56) 255; N.land (N.shiftr n 48) 255; N.land (N.shiftr n 40) 255;
   N.land (N.shiftr n 32) 255; N.land (N.shiftr n 24) 255; N.land (N.shiftr n 16) 255;
   N.land (N.shiftr n 8) 255; N.land n 255].

Definition pad (msg : bytes) : bytes :=
  let len := length msg in
  let k := Nat.modulo (64 + 55 - Nat.modulo len 64) 64 in   (* len + 1 + k = 56 (mod 64) *)
  msg ++ [128] ++ zeros k ++ be64 (8 * N.of_nat len).

Fixpoint blocks (fuel : nat) (hs : list N) (ws : list N) : list N :=
  match fuel with
  | O => hs
  | S f =>
      match ws with
      | [] => hs
      | _ => blocks f (compress hs (firstn 16 ws)) (skipn 16 ws)
      end
  end.

Definition sha256 (msg : bytes) : bytes :=
  let ws := words_of (pad msg) in
  bytes_of_words (blocks (S (Nat.div (length ws) 16)) H0 ws).

(** HMAC-SHA256: keys longer than the block are hashed, shorter ones zero-padded to 64 *)
Definition hmac_key (key : bytes) : bytes :=
  let k := if Nat.ltb 64 (length key) then sha256 key else key in
  k ++ zeros (Nat.sub 64 (length k)).
Definition hmac_sha256 (key msg : bytes) : bytes :=
  let k := hmac_key key in
  sha256 (map (N.lxor 92) k ++ sha256 (map (N.lxor 54) k ++ msg)).

Definition hkdf_extract (salt ikm : bytes) : bytes := hmac_sha256 salt ikm.
Fixpoint hkdf_expand_from (n : nat) (prk info t : bytes) (i : N) : bytes :=
  match n with
  | O => []
  | S m => let t' := hmac_sha256 prk (t ++ info ++ [i]) in t' ++ hkdf_expand_from m prk info t' (i + 1)
  end.
Definition hkdf_expand (prk info : bytes) (nblocks : nat) : bytes := hkdf_expand_from nblocks prk info [] 1.
(** argument order of vls-core::util::crypto_utils::hkdf_sha256(secret, info, salt) *)
Definition hkdf_sha256 (secret info salt : bytes) (nblocks : nat) : bytes :=
  hkdf_expand (hkdf_extract salt secret) info nblocks.

Fixpoint bytes_eqb (x y : bytes) : bool :=
  match x, y with
  | [], [] => true
  | a :: x', b :: y' => N.eqb a b && bytes_eqb x' y'
  | _, _ => false
  end.

Lemma bytes_eqb_eq (x y : bytes) : bytes_eqb x y = true <-> x = y.
Proof.
  revert y; induction x as [|a x IH]; intros [|b y]; cbn [bytes_eqb]; try (split; (reflexivity || discriminate)).
  rewrite Bool.andb_true_iff, N.eqb_eq, IH. split.
  - intros [-> ->]; reflexivity.
  - intros H; inversion H; split; reflexivity.
Qed.

(** [evaluated t H] gives [H : t = v] for the value [v] of the closed term [t], at the price of one
    evaluation.  The checker evaluates a closed term once per occurrence; an example that mentions
    the same hash several times names it with this first and rewrites. *)
Ltac evaluated t H :=
  let v := eval vm_compute in t in assert (H : t = v) by (vm_compute; reflexivity).

Definition hexval (c : ascii) : N :=
  let n := N_of_ascii c in
  if (48 <=? n) && (n <=? 57) then n - 48
  else if (97 <=? n) && (n <=? 102) then n - 87
  else if (65 <=? n) && (n <=? 70) then n - 55 else 0.
Fixpoint of_hex (s : string) : bytes :=
  match s with
  | String a (String b r) => (16 * hexval a + hexval b) :: of_hex r
  | _ => []
  end.
Fixpoint of_ascii (s : string) : bytes :=
  match s with
  | String a r => N_of_ascii a :: of_ascii r
  | EmptyString => []
  end.
Fixpoint repeat_bytes (n : nat) (b : bytes) : bytes :=
  match n with O => [] | S m => b ++ repeat_bytes m b end.

Local Open Scope string_scope.

(* FIPS 180-4 / NIST CAVS examples *)
Example sha256_empty :
  sha256 [] = of_hex "e3b0c44298fc1c149afbf4c8996fb92427ae41e4649b934ca495991b7852b855".
Proof. vm_compute. reflexivity. Qed.
Example sha256_abc :
  sha256 (of_ascii "abc") = of_hex "ba7816bf8f01cfea414140de5dae2223b00361a396177a9cb410ff61f20015ad".
Proof. vm_compute. reflexivity. Qed.
Example sha256_two_blocks :
  sha256 (of_ascii "abcdbcdecdefdefgefghfghighijhijkijkljklmklmnlmnomnopnopq")
  = of_hex "248d6a61d20638b8e5c026930c3e6039a33ce45964ff2167f6ecedd419db06c1".
Proof. vm_compute. reflexivity. Qed.
Example sha256_112_bytes :
  sha256 (of_ascii "abcdefghbcdefghicdefghijdefghijkefghijklfghijklmghijklmnhijklmnoijklmnopjklmnopqklmnopqrlmnopqrsmnopqrstnopqrstu")
  = of_hex "cf5b16a778af8380036ce59e7b0492370b249b11e8f07a51afac45037afee9d1".
Proof. vm_compute. reflexivity. Qed.
(* padding boundaries: 55, 56, 64 bytes *)
Example sha256_55 :
  sha256 (repeat_bytes 55 [97]) = of_hex "9f4390f8d30c2dd92ec9f095b65e2b9ae9b0a925a5258e241c9f1e910f734318".
Proof. vm_compute. reflexivity. Qed.
Example sha256_56 :
  sha256 (repeat_bytes 56 [97]) = of_hex "b35439a4ac6f0948b6d6f9e3c6af0f5f590ce20f1bde7090ef7970686ec6738a".
Proof. vm_compute. reflexivity. Qed.
Example sha256_64 :
  sha256 (repeat_bytes 64 [97]) = of_hex "ffe054fe7ae0cb6dc65c3af9b61d5209f439851db43d0ba5997337df154668eb".
Proof. vm_compute. reflexivity. Qed.
Example sha256_1000_a :
  sha256 (repeat_bytes 1000 [97]) = of_hex "41edece42d63e8d9bf515a9ba6932e1c20cbc9f5a5d134645adb5db1b9737ea3".
Proof. vm_compute. reflexivity. Qed.

(* RFC 4231 HMAC-SHA256 test cases 1, 2, 3, 6 (key longer than the block) *)
Example hmac_rfc4231_1 :
  hmac_sha256 (repeat_bytes 20 [11]) (of_ascii "Hi There")
  = of_hex "b0344c61d8db38535ca8afceaf0bf12b881dc200c9833da726e9376c2e32cff7".
Proof. vm_compute. reflexivity. Qed.
Example hmac_rfc4231_2 :
  hmac_sha256 (of_ascii "Jefe") (of_ascii "what do ya want for nothing?")
  = of_hex "5bdcc146bf60754e6a042426089575c75a003f089d2739839dec58b964ec3843".
Proof. vm_compute. reflexivity. Qed.
Example hmac_rfc4231_3 :
  hmac_sha256 (repeat_bytes 20 [170]) (repeat_bytes 50 [221])
  = of_hex "773ea91e36800e46854db8ebd09181a72959098b3ef8c122d9635514ced565fe".
Proof. vm_compute. reflexivity. Qed.
Example hmac_rfc4231_6 :
  hmac_sha256 (repeat_bytes 131 [170]) (of_ascii "Test Using Larger Than Block-Size Key - Hash Key First")
  = of_hex "60e431591ee0b67f0d8a26aacbf5b77f8e0bc6213728c5140546040f0ee37f54".
Proof. vm_compute. reflexivity. Qed.

(* RFC 5869 HKDF-SHA256 test cases 1 and 3 (42 bytes of output = 2 blocks truncated) *)
Example hkdf_rfc5869_1 :
  firstn 42 (hkdf_sha256 (repeat_bytes 22 [11]) (of_hex "f0f1f2f3f4f5f6f7f8f9")
                         (of_hex "000102030405060708090a0b0c") 2)
  = of_hex "3cb25f25faacd57a90434f64d0362f2a2d2d0a90cf1a5a4c5db02d56ecc4c5bf34007208d5b887185865".
Proof. vm_compute. reflexivity. Qed.
Example hkdf_rfc5869_3 :
  firstn 42 (hkdf_sha256 (repeat_bytes 22 [11]) [] [] 2)
  = of_hex "8da4e775a563c18f715f802a063c5a31b8a11f5c5ee1879ec3454e5f3c738d2d9d201395faa4b61a96c8".
Proof. vm_compute. reflexivity. Qed.
