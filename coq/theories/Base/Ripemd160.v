(** RIPEMD-160 (Dobbertin, Bosselaers, Preneel 1996) as an executable Gallina function over
    byte lists ([list N], every element < 256), so that the BOLT-3 script templates which
    embed HASH160 / RIPEMD160 values (p2wpkh programs, the revocation-key hash and the payment
    hash inside HTLC scripts) run under [vm_compute] without an oracle.  Validated at the end
    of the file against the vectors of the original publication. *)
From Coq Require Import Ascii String NArith List Bool.
Import ListNotations.
Open Scope N_scope.

Module Rmd.

Definition mask32 : N := 4294967295.
Definition add32 (a b : N) : N := N.land (a + b) mask32.
Definition rol (n x : N) : N := N.lor (N.land (N.shiftl x n) mask32) (N.shiftr x (32 - n)).
Definition not32 (x : N) : N := N.lxor x mask32.

Definition f (j : nat) (x y z : N) : N :=
  match Nat.div j 16 with
  | 0%nat => N.lxor (N.lxor x y) z
  | 1%nat => N.lor (N.land x y) (N.land (not32 x) z)
  | 2%nat => N.lxor (N.lor x (not32 y)) z
  | 3%nat => N.lor (N.land x z) (N.land y (not32 z))
  | _ => N.lxor x (N.lor y (not32 z))
  end.

Definition KL (j : nat) : N :=
  match Nat.div j 16 with
  | 0%nat => 0 | 1%nat => 0x5A827999 | 2%nat => 0x6ED9EBA1 | 3%nat => 0x8F1BBCDC | _ => 0xA953FD4E
  end.
Definition KR (j : nat) : N :=
  match Nat.div j 16 with
  | 0%nat => 0x50A28BE6 | 1%nat => 0x5C4DD124 | 2%nat => 0x6D703EF3 | 3%nat => 0x7A6D76E9 | _ => 0
  end.

Definition RL : list nat := [
  0; 1; 2; 3; 4; 5; 6; 7; 8; 9; 10; 11; 12; 13; 14; 15;
  7; 4; 13; 1; 10; 6; 15; 3; 12; 0; 9; 5; 2; 14; 11; 8;
  3; 10; 14; 4; 9; 15; 8; 1; 2; 7; 0; 6; 13; 11; 5; 12;
  1; 9; 11; 10; 0; 8; 12; 4; 13; 3; 7; 15; 14; 5; 6; 2;
  4; 0; 5; 9; 7; 12; 2; 10; 14; 1; 3; 8; 11; 6; 15; 13]%nat.
Definition RR : list nat := [
  5; 14; 7; 0; 9; 2; 11; 4; 13; 6; 15; 8; 1; 10; 3; 12;
  6; 11; 3; 7; 0; 13; 5; 10; 14; 15; 8; 12; 4; 9; 1; 2;
  15; 5; 1; 3; 7; 14; 6; 9; 11; 8; 12; 2; 10; 0; 4; 13;
  8; 6; 4; 1; 3; 11; 15; 0; 5; 12; 2; 13; 9; 7; 10; 14;
  12; 15; 10; 4; 1; 5; 8; 7; 6; 2; 13; 14; 0; 3; 9; 11]%nat.
Definition SL : list N := [
  11; 14; 15; 12; 5; 8; 7; 9; 11; 13; 14; 15; 6; 7; 9; 8;
  7; 6; 8; 13; 11; 9; 7; 15; 7; 12; 15; 9; 11; 7; 13; 12;
  11; 13; 6; 7; 14; 9; 13; 15; 14; 8; 13; 6; 5; 12; 7; 5;
  11; 12; 14; 15; 14; 15; 9; 8; 9; 14; 5; 6; 8; 6; 5; 12;
  9; 15; 5; 11; 6; 8; 13; 12; 5; 12; 13; 14; 11; 8; 5; 6].
Definition SR : list N := [
  8; 9; 9; 11; 13; 15; 15; 5; 7; 7; 8; 11; 14; 14; 12; 6;
  9; 13; 15; 7; 12; 8; 9; 11; 7; 7; 12; 7; 6; 15; 13; 11;
  9; 7; 15; 11; 8; 6; 6; 14; 12; 13; 5; 14; 13; 13; 7; 5;
  15; 5; 8; 11; 14; 14; 6; 14; 6; 9; 12; 9; 12; 5; 15; 8;
  8; 5; 12; 9; 12; 5; 14; 6; 8; 13; 6; 5; 15; 13; 11; 11].

Definition st : Type := (N * N * N * N * N)%type.

Definition step (fj k x s : N) (a b c d e : N) : st :=
  let t := add32 (rol s (add32 (add32 a fj) (add32 x k))) e in
  (e, t, b, rol 10 c, d).

Fixpoint line (left : bool) (n : nat) (j : nat) (blk : list N) (s : st) : st :=
  match n with
  | O => s
  | S m =>
      let '(a, b, c, d, e) := s in
      let s' :=
        if left
        then step (f j b c d) (KL j) (nth (nth j RL 0%nat) blk 0) (nth j SL 0) a b c d e
        else step (f (79 - j) b c d) (KR j) (nth (nth j RR 0%nat) blk 0) (nth j SR 0) a b c d e in
      line left m (S j) blk s'
  end.

Definition compress (h : st) (blk : list N) : st :=
  let '(h0, h1, h2, h3, h4) := h in
  let '(al, bl, cl, dl, el) := line true 80 0 blk h in
  let '(ar, br, cr, dr, er) := line false 80 0 blk h in
  (add32 (add32 h1 cl) dr, add32 (add32 h2 dl) er, add32 (add32 h3 el) ar,
   add32 (add32 h4 al) br, add32 (add32 h0 bl) cr).

(** little-endian bytes <-> 32-bit words *)
Fixpoint words_of (l : list N) : list N :=
  match l with
  | a :: b :: c :: d :: r => (a + N.shiftl b 8 + N.shiftl c 16 + N.shiftl d 24) :: words_of r
  | _ => []
  end.
Definition bytes_of_word (w : N) : list N :=
  [N.land w 255; N.land (N.shiftr w 8) 255; N.land (N.shiftr w 16) 255; N.land (N.shiftr w 24) 255].

Fixpoint zeros (n : nat) : list N := match n with O => [] | S m => 0 :: zeros m end.

Definition le64 (n : N) : list N :=
  bytes_of_word (N.land n mask32) ++ bytes_of_word (N.shiftr n 32).

Definition pad (msg : list N) : list N :=
  let len := length msg in
  let k := Nat.modulo (64 + 55 - Nat.modulo len 64) 64 in
  msg ++ [128] ++ zeros k ++ le64 (8 * N.of_nat len).

Fixpoint blocks (fuel : nat) (h : st) (ws : list N) : st :=
  match fuel with
  | O => h
  | S f0 =>
      match ws with
      | [] => h
      | _ => blocks f0 (compress h (firstn 16 ws)) (skipn 16 ws)
      end
  end.

Definition H0 : st := (0x67452301, 0xEFCDAB89, 0x98BADCFE, 0x10325476, 0xC3D2E1F0).

End Rmd.

Definition ripemd160 (msg : list N) : list N :=
  let ws := Rmd.words_of (Rmd.pad msg) in
  let '(a, b, c, d, e) := Rmd.blocks (S (Nat.div (length ws) 16)) Rmd.H0 ws in
  flat_map Rmd.bytes_of_word [a; b; c; d; e].

Local Open Scope string_scope.
Fixpoint rmd_of_ascii (s : string) : list N :=
  match s with String a r => N_of_ascii a :: rmd_of_ascii r | EmptyString => [] end.
Definition rmd_hexdigit (n : N) : ascii :=
  ascii_of_N (if (n <? 10)%N then (48 + n)%N else (87 + n)%N).
Fixpoint rmd_hex (l : list N) : string :=
  match l with
  | [] => EmptyString
  | b :: r => String (rmd_hexdigit (b / 16)%N) (String (rmd_hexdigit (b mod 16)%N) (rmd_hex r))
  end.

Example ripemd160_empty : rmd_hex (ripemd160 []) = "9c1185a5c5e9fc54612808977ee8f548b2258d31".
Proof. vm_compute. reflexivity. Qed.
Example ripemd160_a : rmd_hex (ripemd160 (rmd_of_ascii "a")) = "0bdc9d2d256b3ee9daae347be6f4dc835a467ffe".
Proof. vm_compute. reflexivity. Qed.
Example ripemd160_abc : rmd_hex (ripemd160 (rmd_of_ascii "abc")) = "8eb208f7e05d987a9b044a8e98c6b087f15a0bfc".
Proof. vm_compute. reflexivity. Qed.
Example ripemd160_md :
  rmd_hex (ripemd160 (rmd_of_ascii "message digest")) = "5d0689ef49d2fae572b881b123a85ffa21595f36".
Proof. vm_compute. reflexivity. Qed.
Example ripemd160_az :
  rmd_hex (ripemd160 (rmd_of_ascii "abcdefghijklmnopqrstuvwxyz")) = "f71c27109c692c1b56bbdceb5b9d2865b3708dbc".
Proof. vm_compute. reflexivity. Qed.
(* 56 bytes: the length field spills into a second block *)
Example ripemd160_56 :
  rmd_hex (ripemd160 (rmd_of_ascii "abcdbcdecdefdefgefghfghighijhijkijkljklmklmnlmnomnopnopq"))
  = "12a053384a9c0c88e405a06c27dcf49ada62eb2b".
Proof. vm_compute. reflexivity. Qed.
Example ripemd160_62 :
  rmd_hex (ripemd160 (rmd_of_ascii "ABCDEFGHIJKLMNOPQRSTUVWXYZabcdefghijklmnopqrstuvwxyz0123456789"))
  = "b0e20b6e3116640286ed3a87a5713079b21f5189".
Proof. vm_compute. reflexivity. Qed.
Example ripemd160_80 :
  rmd_hex (ripemd160 (rmd_of_ascii "12345678901234567890123456789012345678901234567890123456789012345678901234567890"))
  = "9b752e45573d4b39f4dbd3323cab82bf63326bfb".
Proof. vm_compute. reflexivity. Qed.
