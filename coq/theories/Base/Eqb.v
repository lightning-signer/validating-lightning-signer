(** Boolean equality on the first-order data the correspondence checks compare, and the
    [failures] driver evaluated by [vm_compute] in the generated case files. *)
From VLS Require Export Base.U64.

Class Eqb (A : Type) := beq : A -> A -> bool.
#[global] Instance Eqb_N : Eqb N := N.eqb.
#[global] Instance Eqb_nat : Eqb nat := Nat.eqb.
#[global] Instance Eqb_bool : Eqb bool := Bool.eqb.
#[global] Instance Eqb_unit : Eqb unit := fun _ _ => true.
#[global] Instance Eqb_prod {A B} `{Eqb A} `{Eqb B} : Eqb (A * B) :=
  fun x y => beq (fst x) (fst y) && beq (snd x) (snd y).
#[global] Instance Eqb_option {A} `{Eqb A} : Eqb (option A) :=
  fun x y => match x, y with
             | Some a, Some b => beq a b
             | None, None => true
             | _, _ => false
             end.
Fixpoint list_eqb {A} (e : A -> A -> bool) (x y : list A) : bool :=
  match x, y with
  | [], [] => true
  | a :: x', b :: y' => e a b && list_eqb e x' y'
  | _, _ => false
  end.
#[global] Instance Eqb_list {A} `{Eqb A} : Eqb (list A) := list_eqb beq.

(** indices (from 0) of the cases on which [f] answers [false] *)
Fixpoint failures_from {A} (f : A -> bool) (i : N) (l : list A) : list N :=
  match l with
  | [] => []
  | x :: r => if f x then failures_from f (i + 1) r else i :: failures_from f (i + 1) r
  end.
Definition failures {A} (f : A -> bool) (l : list A) : list N := failures_from f 0 l.

Lemma Eqb_N_ok (a b : N) : beq a b = true <-> a = b.
Proof. apply N.eqb_eq. Qed.
Lemma list_eqb_ok {A} (e : A -> A -> bool) :
  (forall a b, e a b = true <-> a = b) -> forall x y, list_eqb e x y = true <-> x = y.
Proof.
  intros He. induction x as [|a x IH]; intros [|b y]; cbn [list_eqb].
  - split; reflexivity.
  - split; discriminate.
  - split; discriminate.
  - rewrite andb_true_iff, He, IH. split.
    + intros [Ha Hx]. subst. reflexivity.
    + intros H. inversion H. split; reflexivity.
Qed.

Lemma prod_eqb_ok {A B} `{Eqb A} `{Eqb B} :
  (forall a b : A, beq a b = true <-> a = b) -> (forall a b : B, beq a b = true <-> a = b) ->
  forall x y : A * B, beq x y = true <-> x = y.
Proof.
  intros HA HB [a b] [c d]. unfold beq at 1, Eqb_prod. cbn [fst snd].
  rewrite andb_true_iff, HA, HB. split; [intros [-> ->]; reflexivity | intros E; inversion E; auto].
Qed.

Lemma existsb_eqb_in {A} (e : A -> A -> bool) : (forall a b, e a b = true <-> a = b) ->
  forall x l, existsb (e x) l = true <-> In x l.
Proof.
  intros He x l. rewrite existsb_exists. split.
  - intros (y & Hy & E). apply He in E. subst y. exact Hy.
  - intros H. exists x. split; [exact H | apply He; reflexivity].
Qed.
