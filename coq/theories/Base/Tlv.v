(** TLV option streams (C19): the codec that `#[derive(SerBoltTlvOptions)]` (bolt-derive) builds
    from LDK's encode_tlv_stream! / decode_tlv_stream! for a struct of [Option] fields.

    Encoding (lightning 0.1 ser_macros.rs, `option` fields, in ascending tag order): for every
    present field  BigSize(tag) ++ BigSize(length of the value) ++ value.
    Decoding: records are read until the reader is exhausted (the derive hands the whole rest of
    the enclosing reader to the macro, so an options struct is always the LAST thing of a
    message); tags must be strictly increasing, BigSizes minimal, every record complete; a known
    record's value must be consumed exactly by the field's decoder; an unknown even tag is an
    error, an unknown odd one is skipped.  There is no bound on the stream other than the
    enclosing message's. *)
From Coq Require Import List Arith NArith Lia Bool.
From VLS Require Import Base.Codec.
Import ListNotations.
Open Scope N_scope.

Definition enc_bigsize (v : N) : bytes :=
  if v <? 253 then [v]
  else if v <? 65536 then 253 :: be_enc 2 v
  else if v <? 4294967296 then 254 :: be_enc 4 v
  else 255 :: be_enc 8 v.
Definition dec_bigsize : dec_t N := fun bs =>
  match bs with
  | [] => None
  | b :: r =>
      if b <? 253 then Some (b, r)
      else if b =? 253 then bind (dec_be 2 r) (fun '(v, r') => if v <? 253 then None else Some (v, r'))
      else if b =? 254 then bind (dec_be 4 r) (fun '(v, r') => if v <? 65536 then None else Some (v, r'))
      else if b =? 255 then bind (dec_be 8 r) (fun '(v, r') => if v <? 4294967296 then None else Some (v, r'))
      else None
  end.
Definition wf_bigsize (v : N) : bool := v <? 18446744073709551616.

(** the marker tests of [dec_bigsize] on a literal first byte, decided once here:
    [cbn [dec_bigsize]] leaves [253 <? 253] etc. standing *)
Lemma dec_bigsize_253 r :
  dec_bigsize (253 :: r) = bind (dec_be 2 r) (fun '(v, r') => if v <? 253 then None else Some (v, r')).
Proof. reflexivity. Qed.
Lemma dec_bigsize_254 r :
  dec_bigsize (254 :: r) = bind (dec_be 4 r) (fun '(v, r') => if v <? 65536 then None else Some (v, r')).
Proof. reflexivity. Qed.
Lemma dec_bigsize_255 r :
  dec_bigsize (255 :: r) = bind (dec_be 8 r) (fun '(v, r') => if v <? 4294967296 then None else Some (v, r')).
Proof. reflexivity. Qed.

(** each guard of the encoder is the [fits] of the width it chooses and the minimality check of
    the next width *)
Lemma rt_bigsize : roundtrip enc_bigsize dec_bigsize wf_bigsize.
Proof.
  intros v rest Hv. unfold enc_bigsize.
  destruct (v <? 253) eqn:H1; [cbn [app dec_bigsize]; rewrite H1; reflexivity|].
  destruct (v <? 65536) eqn:H2; [|destruct (v <? 4294967296) eqn:H3]; cbn [app].
  - rewrite dec_bigsize_253, (be_roundtrip 2 v rest H2). cbn [bind]. rewrite H1. reflexivity.
  - rewrite dec_bigsize_254, (be_roundtrip 4 v rest H3). cbn [bind]. rewrite H2. reflexivity.
  - rewrite dec_bigsize_255, (be_roundtrip 8 v rest Hv). cbn [bind]. rewrite H3. reflexivity.
Qed.

Lemma enc_bigsize_nonempty v : exists h t, enc_bigsize v = h :: t.
Proof.
  unfold enc_bigsize. destruct (v <? 253); [eauto|]. destruct (v <? 65536); [eauto|].
  destruct (v <? 4294967296); eauto.
Qed.

(** a window of [n] bytes, [n] any u64 (never turned into a unary number unless available) *)
Definition takeN (n : N) (bs : bytes) : option (bytes * bytes) :=
  if lenN bs <? n then None else take (N.to_nat n) bs.
Lemma takeN_app a rest : takeN (lenN a) (a ++ rest) = Some (a, rest).
Proof.
  unfold takeN. rewrite lenN_app. destruct (N.ltb_spec (lenN a + lenN rest) (lenN a)); [lia|].
  apply take_app. unfold lenN. lia.
Qed.

(** the fields of an options value in ascending tag order: (tag, encoded value if present) *)
Definition tlv_fields := list (N * option bytes).

Definition enc_rec (t : N) (b : bytes) : bytes := enc_bigsize t ++ enc_bigsize (lenN b) ++ b.
Fixpoint enc_tlv (fs : tlv_fields) : bytes :=
  match fs with
  | [] => []
  | (_, None) :: r => enc_tlv r
  | (t, Some b) :: r => enc_rec t b ++ enc_tlv r
  end.
Fixpoint present (fs : tlv_fields) : list (N * bytes) :=
  match fs with
  | [] => []
  | (_, None) :: r => present r
  | (t, Some b) :: r => (t, b) :: present r
  end.

(** decode_tlv_stream!'s loop, as a parser into raw records ([lo]: last tag seen) *)
Fixpoint parse_tlv (fuel : nat) (lo : option N) (bs : bytes) : option (list (N * bytes)) :=
  match bs with
  | [] => Some []
  | _ :: _ =>
      match fuel with
      | O => None
      | S f =>
          bind (dec_bigsize bs) (fun '(t, r1) =>
            if match lo with Some l => t <=? l | None => false end then None
            else bind (dec_bigsize r1) (fun '(n, r2) =>
                   bind (takeN n r2) (fun '(v, r3) =>
                     bind (parse_tlv f (Some t) r3) (fun l => Some ((t, v) :: l)))))
      end
  end.

Fixpoint tlv_lookup (t : N) (recs : list (N * bytes)) : option bytes :=
  match recs with
  | [] => None
  | (t', b) :: r => if t' =? t then Some b else tlv_lookup t r
  end.
(** unknown tags: even is an error, odd is ignored *)
Definition tlv_unknown_ok (known : list N) (recs : list (N * bytes)) : bool :=
  forallb (fun '(t, _) => existsb (N.eqb t) known || N.odd t) recs.
Definition dec_tlv_field {A} (dec : dec_t A) (o : option bytes) : option (option A) :=
  match o with
  | None => Some None
  | Some b => match dec b with Some (x, []) => Some (Some x) | _ => None end
  end.

(** well-formedness the round trip needs: tags and value lengths are u64, tags ascend *)
Fixpoint tags_above (lo : option N) (fs : tlv_fields) : bool :=
  match fs with
  | [] => true
  | (t, o) :: r =>
      negb (match lo with Some l => t <=? l | None => false end) && wf_bigsize t &&
      match o with Some b => wf_bigsize (lenN b) | None => true end && tags_above (Some t) r
  end.

Definition above (lo : option N) (t : N) : Prop := match lo with Some l => l < t | None => True end.

Lemma above_guard lo t : above lo t <-> match lo with Some l => t <=? l | None => false end = false.
Proof. destruct lo as [l|]; cbn [above]; [rewrite N.leb_gt|]; tauto. Qed.

Lemma above_le lo t t' : above lo t -> t <= t' -> above lo t'.
Proof. destruct lo as [l|]; cbn [above]; [lia|trivial]. Qed.

Lemma tags_above_cons lo t o r :
  tags_above lo ((t, o) :: r) = true <->
  above lo t /\ wf_bigsize t = true /\ wf_option (fun b => wf_bigsize (lenN b)) o = true /\
  tags_above (Some t) r = true.
Proof.
  cbn [tags_above]. split.
  - intros H. repeat (apply andb_true_iff in H; destruct H as [H ?]).
    apply negb_true_iff, above_guard in H. auto.
  - intros (Hlo & Ht & Hb & Hr). apply above_guard, negb_true_iff in Hlo.
    rewrite Hlo, Ht, Hr. destruct o; cbn [wf_option] in Hb; [rewrite Hb|]; reflexivity.
Qed.

Lemma tags_above_mono fs lo lo' :
  (forall t, above lo t -> above lo' t) -> tags_above lo fs = true -> tags_above lo' fs = true.
Proof.
  destruct fs as [|[t o] r]; [reflexivity|]. intros H Hw. apply tags_above_cons.
  apply tags_above_cons in Hw. destruct Hw as (Hlo & Hr). auto.
Qed.

Lemma tags_above_weaken fs : forall lo lo',
  (match lo', lo with Some a, Some b => a <= b | None, _ => True | Some _, None => False end) ->
  tags_above lo fs = true -> tags_above lo' fs = true.
Proof.
  intros lo lo' H. apply tags_above_mono. intros t.
  destruct lo' as [a|], lo as [b|]; cbn [above]; [lia|contradiction|trivial|trivial].
Qed.

Lemma parse_rec f lo t b rest :
  above lo t -> wf_bigsize t = true -> wf_bigsize (lenN b) = true ->
  parse_tlv (S f) lo (enc_rec t b ++ rest) = bind (parse_tlv f (Some t) rest) (fun l => Some ((t, b) :: l)).
Proof.
  intros Hlo Ht Hb. apply above_guard in Hlo. destruct (enc_bigsize_nonempty t) as (h & tl & Eh).
  remember (enc_rec t b ++ rest) as bs eqn:E. destruct bs as [|x y]; [unfold enc_rec in E; rewrite Eh in E; discriminate|].
  cbn [parse_tlv]. rewrite E. unfold enc_rec. rewrite <- !app_assoc, (rt_bigsize t _ Ht). cbn [bind].
  rewrite Hlo, (rt_bigsize _ _ Hb). cbn [bind]. rewrite takeN_app. reflexivity.
Qed.

Lemma enc_rec_length t b : (0 < length (enc_rec t b))%nat.
Proof. unfold enc_rec. destruct (enc_bigsize_nonempty t) as (h & tl & ->). cbn [app length]. lia. Qed.

Theorem parse_enc_tlv fs : forall fuel lo,
  tags_above lo fs = true -> (length (enc_tlv fs) <= fuel)%nat ->
  parse_tlv fuel lo (enc_tlv fs) = Some (present fs).
Proof.
  induction fs as [|[t [b|]] r IH]; intros fuel lo Hw Hf; [destruct fuel; reflexivity|..];
    apply tags_above_cons in Hw; destruct Hw as (Hlo & Ht & Hb & Hr); cbn [enc_tlv present] in *.
  - rewrite app_length in Hf. pose proof (enc_rec_length t b).
    destruct fuel as [|f]; [lia|]. rewrite parse_rec, IH by (assumption || lia). reflexivity.
  - apply IH; [|assumption]. revert Hr. apply tags_above_mono.
    intros t' Ht'. exact (above_le lo t t' Hlo (N.lt_le_incl _ _ Ht')).
Qed.

Lemma not_above_lookup_none fs : forall lo t,
  tags_above lo fs = true -> ~ above lo t -> tlv_lookup t (present fs) = None.
Proof.
  induction fs as [|[t' o] r IH]; intros lo t Hw Hn; [reflexivity|].
  apply tags_above_cons in Hw. destruct Hw as (Hlo & _ & _ & Hr).
  destruct (N.lt_ge_cases t t') as [Hlt|Hge]; [|contradiction (Hn (above_le lo t' t Hlo Hge))].
  specialize (IH (Some t') t Hr (N.lt_asymm _ _ Hlt)).
  destruct o as [b|]; cbn [present tlv_lookup]; [|exact IH].
  destruct (N.eqb_spec t' t); [lia|exact IH].
Qed.

Lemma tags_above_lookup_none fs : forall lo t, tags_above lo fs = true ->
  (match lo with Some l => t <= l | None => False end) -> tlv_lookup t (present fs) = None.
Proof.
  intros lo t Hw H. apply (not_above_lookup_none fs lo t Hw). destruct lo; cbn [above]; [lia|tauto].
Qed.

Lemma tags_above_In fs : forall lo t o, tags_above lo fs = true -> In (t, o) fs -> above lo t.
Proof.
  induction fs as [|[t' o'] r IH]; intros lo t o Hw Hin; [destruct Hin|].
  apply tags_above_cons in Hw. destruct Hw as (Hlo & _ & _ & Hr). apply (above_le lo t' t Hlo).
  destruct Hin as [E|Hin]; [injection E as -> _; apply N.le_refl|].
  exact (N.lt_le_incl _ _ (IH (Some t') t o Hr Hin)).
Qed.

Theorem lookup_present fs : forall lo t o, tags_above lo fs = true -> In (t, o) fs ->
  tlv_lookup t (present fs) = o.
Proof.
  induction fs as [|[t' o'] r IH]; intros lo t o Hw Hin; [destruct Hin|].
  apply tags_above_cons in Hw. destruct Hw as (_ & _ & _ & Hr).
  destruct Hin as [E|Hin].
  - injection E as -> ->. destruct o as [b|]; cbn [present tlv_lookup].
    + rewrite N.eqb_refl. reflexivity.
    + apply (not_above_lookup_none r (Some t) t Hr). apply N.lt_irrefl.
  - assert (Ht : t' < t) by exact (tags_above_In r (Some t') t o Hr Hin).
    destruct o' as [b|]; cbn [present tlv_lookup]; [destruct (N.eqb_spec t' t); [lia|]|];
      apply (IH (Some t')); assumption.
Qed.

Lemma unknown_ok_present fs : tlv_unknown_ok (map fst fs) (present fs) = true.
Proof.
  unfold tlv_unknown_ok. apply forallb_forall. intros [t b] Hin. apply orb_true_iff. left.
  apply existsb_exists. exists t. split; [|apply N.eqb_refl].
  induction fs as [|[t' [b'|]] r IH]; cbn [present map fst In] in *; [destruct Hin| |right; auto].
  destruct Hin as [E|Hin]; [injection E as -> _; left; reflexivity|right; auto].
Qed.

Definition roundtrip_end {A} (enc : A -> bytes) (dec : dec_t A) (wf : A -> bool) : Prop :=
  forall x, wf x = true -> dec (enc x) = Some (x, []).
Lemma roundtrip_to_end {A} (enc : A -> bytes) dec wf : roundtrip enc dec wf -> roundtrip_end enc dec wf.
Proof. intros H x Hw. rewrite <- (app_nil_r (enc x)). apply H. exact Hw. Qed.

Lemma dec_tlv_field_rt {A} (enc : A -> bytes) dec wf (o : option A) :
  roundtrip enc dec wf -> wf_option wf o = true ->
  dec_tlv_field dec (option_map enc o) = Some o.
Proof.
  intros H Hw. destruct o as [x|]; [|reflexivity]. cbn [option_map dec_tlv_field wf_option] in *.
  rewrite (roundtrip_to_end enc dec wf H x Hw). reflexivity.
Qed.
