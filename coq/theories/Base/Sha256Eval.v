(** SHA-256 on words of eight hexadecimal digits, every digit operation a nested [match]: what
    [coqchk], which has no bytecode machine, evaluates cheaply.  [sha256_eval] proves it equal to
    [Sha256.sha256]; a closed hash rewritten with it costs the checker about a sixth of the
    reference. *)
From Coq Require Import NArith ZArith List Bool Lia.
From VLS Require Import Base.Sha256.
Import ListNotations.
Open Scope N_scope.

Inductive hex := X0 | X1 | X2 | X3 | X4 | X5 | X6 | X7 | X8 | X9 | XA | XB | XC | XD | XE | XF.

Definition hN (h : hex) : N :=
  match h with
  | X0 => 0 | X1 => 1 | X2 => 2 | X3 => 3 | X4 => 4 | X5 => 5 | X6 => 6 | X7 => 7
  | X8 => 8 | X9 => 9 | XA => 10 | XB => 11 | XC => 12 | XD => 13 | XE => 14 | XF => 15
  end.
Definition Nh (n : N) : hex :=
  match n with
  | 0 => X0 | 1 => X1 | 2 => X2 | 3 => X3 | 4 => X4 | 5 => X5 | 6 => X6 | 7 => X7
  | 8 => X8 | 9 => X9 | 10 => XA | 11 => XB | 12 => XC | 13 => XD | 14 => XE | _ => XF
  end.

(* the sum of two digits and a carry: a digit, and whether 16 is to be added *)
Inductive sum := S0 (h : hex) | S1 (h : hex).
Definition lo (r : sum) : hex := match r with S0 h | S1 h => h end.
Definition cy (r : sum) : N := match r with S0 _ => 0 | S1 _ => 1 end.
Definition sN (r : sum) : N := hN (lo r) + 16 * cy r.
Definition Ns (n : N) : sum := if n <? 16 then S0 (Nh n) else S1 (Nh (n - 16)).

(* A table is a nested [match] built from its specification, which the phantom index carries: the
   checker evaluates a bare [match] at half the price of one wrapped in [proj1_sig]. *)
Definition tab {A} (dec : A -> N) (n : N) := A.
Ltac tabulate enc :=
  intros; repeat match goal with a : hex |- _ => destruct a end;
  match goal with |- tab _ ?v => let c := eval vm_compute in (enc v) in exact c end.
Ltac tab_ok := intros; repeat match goal with a : hex |- _ => destruct a end; reflexivity.

Definition hxor (a b : hex) : tab hN (N.lxor (hN a) (hN b)).
Proof. tabulate Nh. Defined.
Definition hand (a b : hex) : tab hN (N.land (hN a) (hN b)).
Proof. tabulate Nh. Defined.
Definition hadd0 (a b : hex) : tab sN (hN a + hN b).
Proof. tabulate Ns. Defined.
Definition hadd1 (a b : hex) : tab sN (hN a + hN b + 1).
Proof. tabulate Ns. Defined.
Definition hadd (c : sum) : hex -> hex -> sum := match c with S0 _ => hadd0 | S1 _ => hadd1 end.
Definition shr_spec (r : N) (hi lw : hex) := hN lw / 2 ^ r + hN hi mod 2 ^ r * 2 ^ (4 - r).
Definition hshr1 (hi lw : hex) : tab hN (shr_spec 1 hi lw).
Proof. tabulate Nh. Defined.
Definition hshr2 (hi lw : hex) : tab hN (shr_spec 2 hi lw).
Proof. tabulate Nh. Defined.
Definition hshr3 (hi lw : hex) : tab hN (shr_spec 3 hi lw).
Proof. tabulate Nh. Defined.

(* eight digits, the least significant first *)
Inductive word := mkW (a0 a1 a2 a3 a4 a5 a6 a7 : hex).

Definition val (x : word) : N :=
  let 'mkW a0 a1 a2 a3 a4 a5 a6 a7 := x in
  fold_right (fun h acc => hN h + 16 * acc) 0 [a0; a1; a2; a3; a4; a5; a6; a7].

Definition of_N (n : N) : word :=
  let d n := Nh (N.land n 15) in
  let s n := N.shiftr n 4 in
  let n1 := s n in let n2 := s n1 in let n3 := s n2 in let n4 := s n3 in
  let n5 := s n4 in let n6 := s n5 in let n7 := s n6 in
  mkW (d n) (d n1) (d n2) (d n3) (d n4) (d n5) (d n6) (d n7).

Definition wmap2 (f : hex -> hex -> hex) (x y : word) : word :=
  let 'mkW a0 a1 a2 a3 a4 a5 a6 a7 := x in
  let 'mkW b0 b1 b2 b3 b4 b5 b6 b7 := y in
  mkW (f a0 b0) (f a1 b1) (f a2 b2) (f a3 b3) (f a4 b4) (f a5 b5) (f a6 b6) (f a7 b7).
Definition wxor := wmap2 hxor.
Definition wand := wmap2 hand.
Definition wnot (x : word) : word := wxor x (mkW XF XF XF XF XF XF XF XF).
Definition wCh x y z := wxor (wand x y) (wand (wnot x) z).
Definition wMaj x y z := wxor (wxor (wand x y) (wand x z)) (wand y z).

Definition wadd (x y : word) : word :=
  let 'mkW a0 a1 a2 a3 a4 a5 a6 a7 := x in
  let 'mkW b0 b1 b2 b3 b4 b5 b6 b7 := y in
  let r0 := hadd (S0 X0) a0 b0 in
  let r1 := hadd r0 a1 b1 in
  let r2 := hadd r1 a2 b2 in
  let r3 := hadd r2 a3 b3 in
  let r4 := hadd r3 a4 b4 in
  let r5 := hadd r4 a5 b5 in
  let r6 := hadd r5 a6 b6 in
  let r7 := hadd r6 a7 b7 in
  mkW (lo r0) (lo r1) (lo r2) (lo r3) (lo r4) (lo r5) (lo r6) (lo r7).

(* One pass of a shift by r < 4 over the digits b0..b7, [t] entering at the top.  A rotation by
   4k + r feeds it the digits already rotated by k places. *)
Definition pass (f : hex -> hex -> hex) (t b0 b1 b2 b3 b4 b5 b6 b7 : hex) : word :=
  mkW (f b1 b0) (f b2 b1) (f b3 b2) (f b4 b3) (f b5 b4) (f b6 b5) (f b7 b6) (f t b7).
Definition wbsig0 '(mkW a0 a1 a2 a3 a4 a5 a6 a7) :=
  wxor (wxor (pass hshr2 a0 a0 a1 a2 a3 a4 a5 a6 a7) (pass hshr1 a3 a3 a4 a5 a6 a7 a0 a1 a2))
       (pass hshr2 a5 a5 a6 a7 a0 a1 a2 a3 a4).
Definition wbsig1 '(mkW a0 a1 a2 a3 a4 a5 a6 a7) :=
  wxor (wxor (pass hshr2 a1 a1 a2 a3 a4 a5 a6 a7 a0) (pass hshr3 a2 a2 a3 a4 a5 a6 a7 a0 a1))
       (pass hshr1 a6 a6 a7 a0 a1 a2 a3 a4 a5).
Definition wssig0 '(mkW a0 a1 a2 a3 a4 a5 a6 a7) :=
  wxor (wxor (pass hshr3 a1 a1 a2 a3 a4 a5 a6 a7 a0) (pass hshr2 a4 a4 a5 a6 a7 a0 a1 a2 a3))
       (pass hshr3 X0 a0 a1 a2 a3 a4 a5 a6 a7).
Definition wssig1 '(mkW a0 a1 a2 a3 a4 a5 a6 a7) :=
  wxor (wxor (pass hshr1 a4 a4 a5 a6 a7 a0 a1 a2 a3) (pass hshr3 a4 a4 a5 a6 a7 a0 a1 a2 a3))
       (pass hshr2 X0 a2 a3 a4 a5 a6 a7 X0 X0).

(* [Sha256.sched] .. [Sha256.blocks], their text, with the word operations as variables *)
Section Generic.
  Variable W : Type.
  Variables (add : W -> W -> W) (Ch Maj : W -> W -> W -> W) (bsig0 bsig1 ssig0 ssig1 : W -> W).
  Variables (zero : W) (K : list W).

  Fixpoint gsched (n : nat) (win : list W) (acc : list W) : list W :=
    match n with
    | O => rev acc
    | S m =>
        let w := add (add (ssig1 (nth 1 win zero)) (nth 6 win zero))
                     (add (ssig0 (nth 14 win zero)) (nth 15 win zero)) in
        gsched m (w :: firstn 15 win) (w :: acc)
    end.
  Definition gschedule (blk : list W) : list W := blk ++ gsched 48 (rev blk) [].

  Definition ground (s : W * W * W * W * W * W * W * W) (kw : W * W) :=
    let '(a, b, c, d, e, f, g, h) := s in
    let '(k, w) := kw in
    let t1 := add (add (add h (bsig1 e)) (add (Ch e f g) k)) w in
    let t2 := add (bsig0 a) (Maj a b c) in
    (add t1 t2, a, b, c, add d t1, e, f, g).

  Definition gcompress (hs : list W) (blk : list W) : list W :=
    match hs with
    | [a; b; c; d; e; f; g; h] =>
        let '(a', b', c', d', e', f', g', h') :=
          fold_left ground (combine K (gschedule blk)) (a, b, c, d, e, f, g, h) in
        [add a a'; add b b'; add c c'; add d d'; add e e'; add f f'; add g g'; add h h']
    | _ => hs
    end.

  Fixpoint gblocks (fuel : nat) (hs : list W) (ws : list W) : list W :=
    match fuel with
    | O => hs
    | S f =>
        match ws with
        | [] => hs
        | _ => gblocks f (gcompress hs (firstn 16 ws)) (skipn 16 ws)
        end
    end.
End Generic.

Ltac divlia := zify; Z.to_euclidean_division_equations; lia.
Ltac pows := repeat match goal with |- context [2 ^ ?e] => let v := eval vm_compute in (2 ^ e) in change (2 ^ e) with v end.

Lemma hN_lt h : hN h < 16.
Proof. destruct h; reflexivity. Qed.

Ltac digit_bounds :=
  repeat match goal with |- context [hN ?a] => pose proof (hN_lt a); generalize dependent (hN a); intros end.

Lemma val_lt x : val x < 2 ^ 32.
Proof. destruct x; cbn [val fold_right]; digit_bounds; lia. Qed.

Lemma hN_Nh n : hN (Nh (N.land n 15)) = n mod 16.
Proof.
  change 15 with (N.ones 4); rewrite N.land_ones. pose proof (N.mod_lt n (2 ^ 4)) as H. change (2 ^ 4) with 16 in *.
  generalize dependent (n mod 16); intros [|p] H; [reflexivity|].
  do 4 (try destruct p as [p|p|]); try reflexivity; lia.
Qed.

Lemma val_of_N n : n <= mask32 -> val (of_N n) = n.
Proof.
  intro H; cbv beta zeta delta [of_N]; cbn [val fold_right].
  rewrite !hN_Nh, !N.shiftr_div_pow2; change (2 ^ 4) with 16.
  assert (S : forall m r, r = m / 16 -> m mod 16 + 16 * r = m)
    by (intros m r ->; pose proof (N.div_mod' m 16); lia).
  do 8 apply S; rewrite !N.div_div by discriminate; symmetry; apply N.div_small; unfold mask32 in H; lia.
Qed.

(* bit i of a digit and a rest is bit i of the digit, or bit i - 4 of the rest *)
Lemma digit_bit a x i : N.testbit (hN a + 16 * x) i = if i <? 4 then N.testbit (hN a) i else N.testbit x (i - 4).
Proof.
  pose proof (hN_lt a) as H; destruct (N.ltb_spec i 4) as [L|L].
  - rewrite <- (N.mod_pow2_bits_low _ 4 i L); f_equal; change (2 ^ 4) with 16; divlia.
  - rewrite <- (N.sub_add 4 i L) at 1; rewrite <- N.div_pow2_bits; f_equal; change (2 ^ 4) with 16; divlia.
Qed.

Lemma bitwise_digit (op : N -> N -> N) (f : bool -> bool -> bool) (h : hex -> hex -> hex) :
  (forall a b i, N.testbit (op a b) i = f (N.testbit a i) (N.testbit b i)) ->
  (forall a b, hN (h a b) = op (hN a) (hN b)) ->
  forall a b x y, op (hN a + 16 * x) (hN b + 16 * y) = hN (h a b) + 16 * op x y.
Proof.
  intros S T a b x y; apply N.bits_inj; intro i.
  rewrite S, !digit_bit, T, !S; destruct (i <? 4); reflexivity.
Qed.

Lemma lxor_digit a b x y : N.lxor (hN a + 16 * x) (hN b + 16 * y) = hN (hxor a b) + 16 * N.lxor x y.
Proof. apply (bitwise_digit N.lxor xorb hxor N.lxor_spec); clear; tab_ok. Qed.
Lemma land_digit a b x y : N.land (hN a + 16 * x) (hN b + 16 * y) = hN (hand a b) + 16 * N.land x y.
Proof. apply (bitwise_digit N.land andb hand N.land_spec); clear; tab_ok. Qed.

Lemma wxor_ok x y : val (wxor x y) = N.lxor (val x) (val y).
Proof. destruct x, y; cbn [val wxor wmap2 fold_right]; rewrite !lxor_digit; reflexivity. Qed.
Lemma wand_ok x y : val (wand x y) = N.land (val x) (val y).
Proof. destruct x, y; cbn [val wand wmap2 fold_right]; rewrite !land_digit; reflexivity. Qed.
Lemma wCh_ok x y z : val (wCh x y z) = Ch (val x) (val y) (val z).
Proof. unfold wCh, wnot; rewrite !wxor_ok, !wand_ok, wxor_ok; reflexivity. Qed.
Lemma wMaj_ok x y z : val (wMaj x y z) = Maj (val x) (val y) (val z).
Proof. unfold wMaj; rewrite !wxor_ok, !wand_ok; reflexivity. Qed.

Lemma add_digit c a b x y :
  hN a + 16 * x + (hN b + 16 * y) + cy c = hN (lo (hadd c a b)) + 16 * (x + y + cy (hadd c a b)).
Proof. assert (sN (hadd c a b) = hN a + hN b + cy c) as H by (destruct c; cbn [hadd cy]; clear; tab_ok); unfold sN in H; lia. Qed.

(* [add_digit] carries the sum through the eight digits; what is left above them is the carry out. *)
Lemma wadd_ok x y : val (wadd x y) = add32 (val x) (val y).
Proof.
  unfold add32; rewrite (N.land_ones _ 32), <- (N.add_0_r (_ + _)).
  pose proof (val_lt (wadd x y)) as B; revert B; destruct x, y.
  cbv beta iota zeta delta [wadd val fold_right]; change 0 with (cy (S0 X0)) at 5; rewrite !add_digit; intro B.
  match goal with |- context [0 + 0 + cy ?c] => apply N.mod_unique with (q := cy c) end; [exact B | lia].
Qed.

(** rotation, arithmetically *)
Definition R (n x : N) : N := x / 2 ^ n + x mod 2 ^ n * 2 ^ (32 - n).

Lemma lor_add a b k : a < 2 ^ k -> N.lor a (b * 2 ^ k) = a + b * 2 ^ k.
Proof.
  intro H. assert (E : N.land a (b * 2 ^ k) = 0).
  { apply N.bits_inj_0; intro i; rewrite N.land_spec. destruct (N.lt_ge_cases i k) as [L|L].
    - rewrite N.mul_pow2_bits_low, andb_false_r by exact L; reflexivity.
    - rewrite <- (N.mod_small a (2 ^ k)), N.mod_pow2_bits_high by assumption; reflexivity. }
  rewrite <- (N.lxor_lor _ _ E); symmetry; apply N.add_nocarry_lxor, E.
Qed.

Lemma rotr_R n x : 0 < n < 32 -> x < 2 ^ 32 -> rotr n x = R n x.
Proof.
  intros Hn Hx; unfold rotr, R; change mask32 with (N.ones 32).
  rewrite N.shiftr_div_pow2, N.shiftl_mul_pow2, N.land_ones.
  replace 32 with (n + (32 - n)) in Hx |- * at 2 by lia; rewrite N.pow_add_r in *.
  rewrite N.mul_mod_distr_r by (apply N.pow_nonzero; discriminate).
  apply lor_add, N.div_lt_upper_bound; [apply N.pow_nonzero; discriminate | exact Hx].
Qed.

Lemma R_R a b x : a + b <= 32 -> R a (R b x) = R (a + b) x.
Proof.
  intro H; unfold R. assert (P : forall n, 2 ^ n <> 0) by (intro; apply N.pow_nonzero; discriminate).
  replace (32 - b) with (32 - (a + b) + a) by lia; replace (32 - a) with (b + (32 - (a + b))) by lia.
  rewrite (N.add_comm a b), !N.pow_add_r, !N.mul_assoc, N.div_add, N.mod_add, N.div_div, N.mod_mul_r by apply P.
  ring.
Qed.

Definition rot4 '(mkW a0 a1 a2 a3 a4 a5 a6 a7) := mkW a1 a2 a3 a4 a5 a6 a7 a0.

Lemma rot4_ok k x : (k <= 8)%nat -> val (Nat.iter k rot4 x) = R (4 * N.of_nat k) (val x).
Proof.
  induction k as [|k IH]; intro H.
  - unfold R; change (4 * N.of_nat 0) with 0; rewrite N.pow_0_r, N.div_1_r, N.mod_1_r; symmetry; apply N.add_0_r.
  - change (Nat.iter (S k) rot4 x) with (rot4 (Nat.iter k rot4 x)); replace (4 * N.of_nat (S k)) with (4 + 4 * N.of_nat k) by lia.
    rewrite <- R_R, <- IH by lia; generalize (Nat.iter k rot4 x); clear; intros [].
    unfold R; cbn [val rot4 fold_right]; change (2 ^ 4) with 16; change (2 ^ (32 - 4)) with 268435456.
    digit_bounds; divlia.
Qed.

Lemma shr_step r hi lw z : r = 1 \/ r = 2 \/ r = 3 ->
  (hN lw + 16 * (hN hi + 16 * z)) / 2 ^ r = shr_spec r hi lw + 16 * ((hN hi + 16 * z) / 2 ^ r).
Proof. unfold shr_spec; intros [-> | [-> | ->]]; pows; divlia. Qed.

Section Pass.
  Variables (f : hex -> hex -> hex) (r : N).
  Hypothesis (Hf : forall hi lw, hN (f hi lw) = shr_spec r hi lw) (Hr : r = 1 \/ r = 2 \/ r = 3).

  Lemma pass_ok t b0 b1 b2 b3 b4 b5 b6 b7 :
    val (pass f t b0 b1 b2 b3 b4 b5 b6 b7)
    = val (mkW b0 b1 b2 b3 b4 b5 b6 b7) / 2 ^ r + hN t mod 2 ^ r * 2 ^ (32 - r).
  Proof.
    cbn [val pass fold_right]; rewrite !Hf, !shr_step, N.mul_0_r, !N.add_0_r by exact Hr; unfold shr_spec.
    destruct Hr as [-> | [-> | ->]]; pows; lia.
  Qed.

  Lemma rotr_ok k x : (k <= 7)%nat ->
    val (let 'mkW b0 b1 b2 b3 b4 b5 b6 b7 := Nat.iter k rot4 x in pass f b0 b0 b1 b2 b3 b4 b5 b6 b7)
    = rotr (r + 4 * N.of_nat k) (val x).
  Proof.
    intro H; rewrite rotr_R, <- R_R, <- rot4_ok by (apply val_lt || lia).
    destruct (Nat.iter k rot4 x); rewrite pass_ok; unfold R; do 2 f_equal; cbn [val fold_right].
    destruct Hr as [-> | [-> | ->]]; pows; divlia.
  Qed.

  Lemma shr_ok b0 b1 b2 b3 b4 b5 b6 b7 :
    val (pass f X0 b0 b1 b2 b3 b4 b5 b6 b7) = shr r (val (mkW b0 b1 b2 b3 b4 b5 b6 b7)).
  Proof. rewrite pass_ok; unfold shr; rewrite N.shiftr_div_pow2; cbn [hN]; rewrite N.mod_0_l; [lia | apply N.pow_nonzero; discriminate]. Qed.
End Pass.

Lemma hshr1_ok hi lw : hN (hshr1 hi lw) = shr_spec 1 hi lw.
Proof. tab_ok. Qed.
Lemma hshr2_ok hi lw : hN (hshr2 hi lw) = shr_spec 2 hi lw.
Proof. tab_ok. Qed.
Lemma hshr3_ok hi lw : hN (hshr3 hi lw) = shr_spec 3 hi lw.
Proof. tab_ok. Qed.
(* a sigma function is three passes, xored: each rotation is [rotr_ok] at its number of places *)
Ltac rot H k := refine (rotr_ok _ _ H _ k (mkW _ _ _ _ _ _ _ _) _); [auto | lia].
Ltac sigma := intros []; cbv beta iota delta [wbsig0 wbsig1 wssig0 wssig1 bsig0 bsig1 ssig0 ssig1]; rewrite !wxor_ok; f_equal; [f_equal|].

Lemma wbsig0_ok x : val (wbsig0 x) = bsig0 (val x).
Proof. revert x; sigma; [rot hshr2_ok 0%nat | rot hshr1_ok 3%nat | rot hshr2_ok 5%nat]. Qed.
Lemma wbsig1_ok x : val (wbsig1 x) = bsig1 (val x).
Proof. revert x; sigma; [rot hshr2_ok 1%nat | rot hshr3_ok 2%nat | rot hshr1_ok 6%nat]. Qed.
Lemma wssig0_ok x : val (wssig0 x) = ssig0 (val x).
Proof. revert x; sigma; [rot hshr3_ok 1%nat | rot hshr2_ok 4%nat | apply (shr_ok _ _ hshr3_ok); auto]. Qed.
Lemma wssig1_ok x : val (wssig1 x) = ssig1 (val x).
Proof.
  revert x; sigma; [rot hshr1_ok 4%nat | rot hshr3_ok 4%nat |].
  rewrite (shr_ok _ _ hshr2_ok) by auto; unfold shr; change 10 with (8 + 2).
  rewrite <- N.shiftr_shiftr; f_equal; rewrite N.shiftr_div_pow2; cbn [val fold_right hN]; pows; digit_bounds; divlia.
Qed.

(** * The algorithm commutes with a homomorphism of its word interface

    stated against [Sha256.sched], [compress], [blocks] themselves and not against the generic
    functions at [N]: that the two are convertible is true, but neither the unifier nor the kernel
    gets through [sched 48 _ _], whose 48 words they compare without sharing. *)
Section Hom.
  Variables (W : Type) (add : W -> W -> W) (Ch' Maj' : W -> W -> W -> W) (bs0 bs1 ss0 ss1 : W -> W).
  Variables (zero : W) (K : list W) (h : W -> N).
  Hypothesis h_add : forall x y, h (add x y) = add32 (h x) (h y).
  Hypothesis h_Ch : forall x y z, h (Ch' x y z) = Ch (h x) (h y) (h z).
  Hypothesis h_Maj : forall x y z, h (Maj' x y z) = Maj (h x) (h y) (h z).
  Hypothesis h_bs0 : forall x, h (bs0 x) = bsig0 (h x).
  Hypothesis h_bs1 : forall x, h (bs1 x) = bsig1 (h x).
  Hypothesis h_ss0 : forall x, h (ss0 x) = ssig0 (h x).
  Hypothesis h_ss1 : forall x, h (ss1 x) = ssig1 (h x).
  Hypothesis h_zero : h zero = 0.
  Hypothesis h_K : map h K = K256.

  Lemma hom_sched n : forall win acc,
    map h (gsched W add ss0 ss1 zero n win acc) = sched n (map h win) (map h acc).
  Proof.
    induction n as [|n IH]; intros; cbn [gsched sched]; [apply map_rev|].
    rewrite IH; cbn [map]; rewrite !h_add, h_ss0, h_ss1, <- h_zero, !map_nth, firstn_map; reflexivity.
  Qed.

  Definition h8 '(a, b, c, d, e, f, g, i) := (h a, h b, h c, h d, h e, h f, h g, h i).

  Lemma hom_rounds : forall ks ws s,
    h8 (fold_left (ground W add Ch' Maj' bs0 bs1) (combine ks ws) s)
    = fold_left round (combine (map h ks) (map h ws)) (h8 s).
  Proof.
    induction ks as [|k ks IH]; intros [|w ws] s; try reflexivity.
    cbn [map combine fold_left]; rewrite IH; f_equal.
    destruct s as [[[[[[[a b] c] d] e] f] g] i]; cbn [ground round h8].
    rewrite !h_add, h_bs0, h_bs1, h_Ch, h_Maj; reflexivity.
  Qed.

  Lemma hom_compress hs blk :
    map h (gcompress W add Ch' Maj' bs0 bs1 ss0 ss1 zero K hs blk) = compress (map h hs) (map h blk).
  Proof.
    destruct hs as [|a [|b [|c [|d [|e [|f [|g [|i [|]]]]]]]]]; try reflexivity.
    cbn [gcompress compress map]; unfold gschedule, schedule.
    generalize (hom_rounds K (blk ++ gsched W add ss0 ss1 zero 48 (rev blk) []) (a, b, c, d, e, f, g, i)).
    rewrite h_K, map_app, hom_sched, map_rev; cbn [h8 map]; intros <-.
    destruct (fold_left _ _ _) as [[[[[[[a' b'] c'] d'] e'] f'] g'] i']; cbn [h8 map]; rewrite !h_add; reflexivity.
  Qed.

  Lemma hom_blocks fuel : forall hs ws,
    map h (gblocks W add Ch' Maj' bs0 bs1 ss0 ss1 zero K fuel hs ws) = blocks fuel (map h hs) (map h ws).
  Proof.
    induction fuel as [|fuel IH]; intros hs [|w ws]; try reflexivity.
    cbn [gblocks blocks]; rewrite IH, hom_compress, <- firstn_map, <- skipn_map; reflexivity.
  Qed.
End Hom.

Definition wK := Eval vm_compute in map of_N K256.
Definition wH0 := Eval vm_compute in map of_N Sha256.H0.
Definition wblocks := gblocks word wadd wCh wMaj wbsig0 wbsig1 wssig0 wssig1 (of_N 0) wK.

(* [rotr] and [shr] of the reference do not mask what they shift down, so on a word of more than
   32 bits (a message "byte" may be any number) it computes what no 32-bit word can follow.  Such
   messages, which no use has, are left to it: [sha256_eval] holds of every message. *)
Definition sha256 (msg : bytes) : bytes :=
  let ws := words_of (pad msg) in
  if forallb (fun w => w <=? mask32) ws
  then bytes_of_words (map val (wblocks (S (Nat.div (length ws) 16)) wH0 (map of_N ws)))
  else Sha256.sha256 msg.

Theorem sha256_eval msg : Sha256.sha256 msg = sha256 msg.
Proof.
  unfold sha256, Sha256.sha256; cbv zeta; destruct (forallb _ _) eqn:E; [|reflexivity].
  unfold wblocks; rewrite (hom_blocks word wadd wCh wMaj wbsig0 wbsig1 wssig0 wssig1 (of_N 0) wK val)
    by (auto using wadd_ok, wCh_ok, wMaj_ok, wbsig0_ok, wbsig1_ok, wssig0_ok, wssig1_ok).
  rewrite map_map, (map_ext_in _ (fun w => w)), map_id; [reflexivity|].
  intros w Hw; apply val_of_N, N.leb_le, (proj1 (forallb_forall _ _) E w Hw).
Qed.

(** HMAC and HKDF of the reference with the hash swapped *)
Definition hmac_sha256 (key msg : bytes) : bytes :=
  let k0 := if Nat.ltb 64 (length key) then sha256 key else key in
  let k := k0 ++ zeros (Nat.sub 64 (length k0)) in
  sha256 (map (N.lxor 92) k ++ sha256 (map (N.lxor 54) k ++ msg)).
Fixpoint hkdf_expand_from (n : nat) (prk info t : bytes) (i : N) : bytes :=
  match n with
  | O => []
  | S m => let t' := hmac_sha256 prk (t ++ info ++ [i]) in t' ++ hkdf_expand_from m prk info t' (i + 1)
  end.
Definition hkdf_sha256 (secret info salt : bytes) (nblocks : nat) : bytes :=
  hkdf_expand_from nblocks (hmac_sha256 salt secret) info [] 1.

Lemma hmac_sha256_eval key msg : Sha256.hmac_sha256 key msg = hmac_sha256 key msg.
Proof. unfold Sha256.hmac_sha256, hmac_key, hmac_sha256; cbv zeta; rewrite !sha256_eval; reflexivity. Qed.

Lemma hkdf_sha256_eval secret info salt n : Sha256.hkdf_sha256 secret info salt n = hkdf_sha256 secret info salt n.
Proof.
  unfold Sha256.hkdf_sha256, hkdf_expand, hkdf_extract, hkdf_sha256; rewrite hmac_sha256_eval.
  generalize (hmac_sha256 salt secret) (@nil N) 1.
  induction n as [|n IH]; intros prk t i; cbn [Sha256.hkdf_expand_from hkdf_expand_from]; [reflexivity|].
  rewrite hmac_sha256_eval, IH; reflexivity.
Qed.
