(** SHA-256 over primitive 63-bit integers ([Uint63], evaluated natively by [vm_compute]): the
    same function as [Sha256.sha256] (binary [N] arithmetic, about 4.5 ms per block), roughly
    two orders of magnitude faster.  Used only by the *executable* side of correspondence
    checks that hash thousands of byte strings per run (C04: one witness script per mutant);
    no theorem depends on this file.  Validated below against the FIPS 180-4 vectors and
    against [Sha256.sha256] on a range of lengths around the padding boundaries. *)
From Coq Require Import Uint63 ZArith NArith List Bool String Ascii Lia.
From VLS Require Base.Sha256 Base.Sha256Eval.
Import ListNotations.
Open Scope uint63_scope.

Module F.

Definition mask32 : int := 0xFFFFFFFF.
Definition add32 (a b : int) : int := (a + b) land mask32.
Definition rotr (n x : int) : int := ((x >> n) lor (x << (32 - n))) land mask32.
Definition not32 (x : int) : int := x lxor mask32.

Definition Ch (x y z : int) : int := (x land y) lxor ((not32 x) land z).
Definition Maj (x y z : int) : int := ((x land y) lxor (x land z)) lxor (y land z).
Definition bsig0 (x : int) : int := (rotr 2 x lxor rotr 13 x) lxor rotr 22 x.
Definition bsig1 (x : int) : int := (rotr 6 x lxor rotr 11 x) lxor rotr 25 x.
Definition ssig0 (x : int) : int := (rotr 7 x lxor rotr 18 x) lxor (x >> 3).
Definition ssig1 (x : int) : int := (rotr 17 x lxor rotr 19 x) lxor (x >> 10).

Definition K256 : list int := [
  0x428a2f98; 0x71374491; 0xb5c0fbcf; 0xe9b5dba5; 0x3956c25b; 0x59f111f1; 0x923f82a4; 0xab1c5ed5;
  0xd807aa98; 0x12835b01; 0x243185be; 0x550c7dc3; 0x72be5d74; 0x80deb1fe; 0x9bdc06a7; 0xc19bf174;
  0xe49b69c1; 0xefbe4786; 0x0fc19dc6; 0x240ca1cc; 0x2de92c6f; 0x4a7484aa; 0x5cb0a9dc; 0x76f988da;
  0x983e5152; 0xa831c66d; 0xb00327c8; 0xbf597fc7; 0xc6e00bf3; 0xd5a79147; 0x06ca6351; 0x14292967;
  0x27b70a85; 0x2e1b2138; 0x4d2c6dfc; 0x53380d13; 0x650a7354; 0x766a0abb; 0x81c2c92e; 0x92722c85;
  0xa2bfe8a1; 0xa81a664b; 0xc24b8b70; 0xc76c51a3; 0xd192e819; 0xd6990624; 0xf40e3585; 0x106aa070;
  0x19a4c116; 0x1e376c08; 0x2748774c; 0x34b0bcb5; 0x391c0cb3; 0x4ed8aa4a; 0x5b9cca4f; 0x682e6ff3;
  0x748f82ee; 0x78a5636f; 0x84c87814; 0x8cc70208; 0x90befffa; 0xa4506ceb; 0xbef9a3f7; 0xc67178f2].

Definition H0 : list int := [
  0x6a09e667; 0xbb67ae85; 0x3c6ef372; 0xa54ff53a; 0x510e527f; 0x9b05688c; 0x1f83d9ab; 0x5be0cd19].

Definition of_byte (b : N) : int := Uint63.of_Z (Z.of_N b).
Definition to_byte (x : int) : N := Z.to_N (Uint63.to_Z (x land 255)).

Fixpoint words_of (l : list N) : list int :=
  match l with
  | a :: b :: c :: d :: r =>
      ((of_byte a << 24) lor (of_byte b << 16) lor (of_byte c << 8) lor of_byte d) :: words_of r
  | _ => []
  end.
Definition bytes_of_word (w : int) : list N :=
  [to_byte (w >> 24); to_byte (w >> 16); to_byte (w >> 8); to_byte w].

(** message schedule: [win] holds the last 16 words, most recent first *)
Fixpoint sched (n : nat) (win : list int) (acc : list int) : list int :=
  match n with
  | O => rev acc
  | S m =>
      let w := add32 (add32 (ssig1 (nth 1 win 0)) (nth 6 win 0))
                     (add32 (ssig0 (nth 14 win 0)) (nth 15 win 0)) in
      sched m (w :: firstn 15 win) (w :: acc)
  end.
Definition schedule (blk : list int) : list int := blk ++ sched 48 (rev blk) [].

Definition round (s : int * int * int * int * int * int * int * int) (kw : int * int) :=
  let '(a, b, c, d, e, f, g, h) := s in
  let '(k, w) := kw in
  let t1 := add32 (add32 (add32 h (bsig1 e)) (add32 (Ch e f g) k)) w in
  let t2 := add32 (bsig0 a) (Maj a b c) in
  (add32 t1 t2, a, b, c, add32 d t1, e, f, g).

Definition compress (hs : list int) (blk : list int) : list int :=
  match hs with
  | [a; b; c; d; e; f; g; h] =>
      let '(a', b', c', d', e', f', g', h') :=
        fold_left round (combine K256 (schedule blk)) (a, b, c, d, e, f, g, h) in
      [add32 a a'; add32 b b'; add32 c c'; add32 d d'; add32 e e'; add32 f f'; add32 g g'; add32 h h']
  | _ => hs
  end.

Fixpoint blocks (fuel : nat) (hs : list int) (ws : list int) : list int :=
  match fuel with
  | O => hs
  | S f =>
      match ws with
      | [] => hs
      | _ => blocks f (compress hs (firstn 16 ws)) (skipn 16 ws)
      end
  end.

End F.

(** padding is shared with the reference implementation *)
Definition sha256 (msg : list N) : list N :=
  let ws := F.words_of (Sha256.pad msg) in
  flat_map F.bytes_of_word (F.blocks (S (Nat.div (List.length ws) 16)) F.H0 ws).

Local Open Scope string_scope.
Example fast_sha256_empty :
  sha256 [] = Sha256.of_hex "e3b0c44298fc1c149afbf4c8996fb92427ae41e4649b934ca495991b7852b855".
Proof. vm_compute. reflexivity. Qed.
Example fast_sha256_abc :
  sha256 (Sha256.of_ascii "abc")
  = Sha256.of_hex "ba7816bf8f01cfea414140de5dae2223b00361a396177a9cb410ff61f20015ad".
Proof. vm_compute. reflexivity. Qed.
Example fast_sha256_two_blocks :
  sha256 (Sha256.of_ascii "abcdbcdecdefdefgefghfghighijhijkijkljklmklmnlmnomnopnopq")
  = Sha256.of_hex "248d6a61d20638b8e5c026930c3e6039a33ce45964ff2167f6ecedd419db06c1".
Proof. vm_compute. reflexivity. Qed.
Example fast_sha256_1000_a :
  sha256 (Sha256.repeat_bytes 1000 [97%N])
  = Sha256.of_hex "41edece42d63e8d9bf515a9ba6932e1c20cbc9f5a5d134645adb5db1b9737ea3".
Proof. vm_compute. reflexivity. Qed.

(** agreement with the reference on messages of every length 0..140 (all padding cases for
    one to three blocks) with varied content *)
Fixpoint ramp (n : nat) (seed : N) : list N :=
  match n with O => [] | S m => ((seed * 167 + 13) mod 256)%N :: ramp m ((seed * 167 + 13) mod 65521)%N end.
(** [ramp] without [N.modulo], which is what the checker pays for in it: 65521 = 2^16 - 15, so
    x = 2^16 q + r is congruent to 15 q + r, and for x < 2^24 that exceeds 65521 at most once *)
Definition mod65521 (x : N) : N :=
  (let y := 15 * N.shiftr x 16 + N.land x 65535 in if y <? 65521 then y else y - 65521)%N.
Fixpoint ramp' (n : nat) (seed : N) : list N :=
  match n with
  | O => []
  | S m => let x := (167 * seed + 13)%N in N.land x 255 :: ramp' m (mod65521 x)
  end.
Lemma ramp_eq n : forall seed, (seed < 65521)%N -> ramp n seed = ramp' n seed.
Proof.
  induction n as [|n IH]; intros seed H; cbn [ramp ramp']; [reflexivity|].
  assert (E : mod65521 (167 * seed + 13) = ((seed * 167 + 13) mod 65521)%N).
  { unfold mod65521; change 65535%N with (N.ones 16); rewrite N.land_ones, N.shiftr_div_pow2.
    change (2 ^ 16)%N with 65536%N; destruct (N.ltb_spec (15 * ((167 * seed + 13) / 65536) + (167 * seed + 13) mod 65536) 65521);
      Sha256Eval.divlia. }
  rewrite E, <- IH by (apply N.mod_lt; discriminate).
  change 255%N with (N.ones 8); rewrite N.land_ones; do 2 f_equal; lia.
Qed.

Example fast_agrees_with_reference :
  forallb (fun n => Sha256.bytes_eqb (sha256 (ramp n (N.of_nat n))) (Sha256.sha256 (ramp n (N.of_nat n))))
          (seq 0 141) = true.
Proof.
  (* The reference is replaced by its evaluator and [ramp] by [ramp'], and [agree] takes the
     message as one argument, so that the checker, which evaluates by need, computes it once. *)
  pose (agree := fun msg => Sha256.bytes_eqb (sha256 msg) (Sha256Eval.sha256 msg)).
  apply forallb_forall; intros n H.
  rewrite Sha256Eval.sha256_eval, ramp_eq by (apply in_seq in H; lia).
  change (agree (ramp' n (N.of_nat n)) = true); revert n H; apply forallb_forall.
  vm_compute. reflexivity.
Qed.
